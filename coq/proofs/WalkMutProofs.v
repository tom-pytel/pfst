(* The invariant of the walk under mutation (Inv): the objects scheduled or popped so far carry pairwise different
   handles; each is a child, by its creation-time parent (which no mutation changes), of an object that has been expanded;
   and apart from the root an object is expanded only under the handle of one popped before. Hence an object with the
   handle of the node on top of the stack has not been expanded yet, and, as objects with one handle have one parent, its
   children share no handle with anything scheduled or popped. *)
From Coq Require Import List Bool Lia Permutation.
From PF Require Import models.WalkMut proofs.ListFacts.
Import ListNotations.

Record Inv (h : heap) (s : wstate) : Prop := {
  i_nodup : NoDup (stack s ++ seen s);
  i_par : forall x, In x (stack s ++ seen s) -> x < next h /\ exists p, parent h x = Some p /\ In p (expanded s);
  i_exp : forall c, In c (expanded s) -> c < next h /\ (parent h c = None \/ exists a, In a (seen s) /\ handle h c = handle h a);
  i_inj : forall x y, In x (stack s ++ seen s) -> In y (stack s ++ seen s) -> handle h x = handle h y -> x = y;
  i_out : NoDup (out s) /\ forall g, In g (out s) -> exists a, In a (seen s) /\ handle h a = g
}.

Lemma legal_refl h : legal h h.
Proof. split; [lia|auto]. Qed.

Lemma legal_trans h1 h2 h3 : legal h1 h2 -> legal h2 h3 -> legal h1 h3.
Proof.
  intros [N1 K1] [N2 K2]. split; [lia|]. intros x Hx.
  destruct (K1 x Hx) as [P1 H1]. destruct (K2 x ltac:(lia)) as [P2 H2]. split; congruence.
Qed.

Lemma inv_transport h h' s : Inv h s -> legal h h' -> Inv h' s.
Proof.
  intros [Hnd Hpar Hexp Hinj [Hndo Hout]] [Hn Hk].
  (* what the state mentions existed in h, so it keeps parent and handle *)
  assert (Hold : forall x, In x (stack s ++ seen s) -> parent h' x = parent h x /\ handle h' x = handle h x).
  { intros x Hx. apply Hk, (Hpar x Hx). }
  assert (Hseen : forall a, In a (seen s) -> handle h' a = handle h a).
  { intros a Ha. apply Hold, in_or_app. right. exact Ha. }
  constructor.
  - exact Hnd.
  - intros x Hx. destruct (Hpar x Hx) as [Hlt Hp]. split; [lia|].
    rewrite (proj1 (Hold x Hx)). exact Hp.
  - intros c Hc. destruct (Hexp c Hc) as [Hlt Hor]. split; [lia|].
    destruct (Hk c Hlt) as [Hpc Hhc]. rewrite Hpc, Hhc.
    destruct Hor as [Hnone|[a [Ha Heq]]]; [left; exact Hnone|].
    right. exists a. rewrite (Hseen a Ha). split; [exact Ha|exact Heq].
  - intros x y Hx Hy. rewrite (proj2 (Hold x Hx)), (proj2 (Hold y Hy)). apply Hinj; assumption.
  - split; [exact Hndo|].
    intros g Hg. destruct (Hout g Hg) as [a [Ha Heq]]. exists a. rewrite (Hseen a Ha). split; [exact Ha|exact Heq].
Qed.

Lemma top_handle_new h s a st : stack s = a :: st -> Inv h s -> forall b, In b (seen s) -> handle h b <> handle h a.
Proof.
  intros Hst I b Hb Heq.
  pose proof (i_nodup h s I) as Hnd. pose proof (i_inj h s I a b) as Hinj. rewrite Hst in Hnd, Hinj.
  assert (Hin : In b (st ++ seen s)) by (apply in_or_app; right; exact Hb).
  apply (NoDup_cons_iff a (st ++ seen s)) in Hnd. apply (proj1 Hnd).
  rewrite (Hinj (or_introl eq_refl) (or_intror Hin) (eq_sym Heq)). exact Hin.
Qed.

(* pop a: it is discarded (not attached) or yielded without scheduling children *)
Lemma inv_pop h s a st (yielded : bool) :
  stack s = a :: st -> Inv h s ->
  Inv h {| stack := st; seen := a :: seen s; expanded := expanded s; out := if yielded then handle h a :: out s else out s |}.
Proof.
  intros Hst I. pose proof (top_handle_new h s a st Hst I) as Hnew.
  destruct I as [Hnd Hpar Hexp Hinj [Hndo Hout]]. rewrite Hst in *.
  pose proof (Permutation_middle st (seen s) a) as Hperm.
  assert (Hback : forall x, In x (st ++ a :: seen s) -> In x ((a :: st) ++ seen s)).
  { intros x. apply Permutation_in, Permutation_sym, Hperm. }
  assert (Hout' : forall g, In g (out s) -> exists b, In b (a :: seen s) /\ handle h b = g).
  { intros g Hg. destruct (Hout g Hg) as [b [Hb Heq]]. exists b. split; [right; exact Hb|exact Heq]. }
  constructor; cbn [stack seen expanded out].
  - exact (Permutation_NoDup Hperm Hnd).
  - intros x Hx. apply Hpar, Hback, Hx.
  - intros c Hc. destruct (Hexp c Hc) as [Hlt Hor]. split; [exact Hlt|].
    destruct Hor as [Hn|[b [Hb Heq]]]; [left; exact Hn|right; exists b; split; [right; exact Hb|exact Heq]].
  - intros x y Hx Hy. apply Hinj; apply Hback; assumption.
  - destruct yielded; [|exact (conj Hndo Hout')]. split.
    + constructor; [|exact Hndo]. intros Hin. destruct (Hout _ Hin) as [b [Hb Heq]]. exact (Hnew b Hb Heq).
    + intros g [<-|Hg]; [exists a; split; [left|]; reflexivity|exact (Hout' g Hg)].
Qed.

(* schedule the children of c under the handle of a node a popped before *)
Lemma inv_expand h s a c :
  WF h -> Inv h s -> In a (seen s) -> handle h c = handle h a -> c < next h -> ~ In c (expanded s) ->
  Inv h {| stack := kids h c ++ stack s; seen := seen s; expanded := c :: expanded s; out := out s |}.
Proof.
  intros (W1 & W2 & _ & W4) [Hnd Hpar Hexp Hinj Hout] Ha Hh Hc Hnew.
  (* a child of c shares its handle with nothing scheduled or popped: that object's parent would be c as well *)
  assert (Hcross : forall x y, In x (kids h c) -> In y (stack s ++ seen s) -> handle h x <> handle h y).
  { intros x y Hx Hy Heq. destruct (W1 c x Hx) as [Hpx Hxl]. destruct (Hpar y Hy) as [Hyl [p [Hpy Hpe]]].
    rewrite (W4 x y Hxl Hyl Heq), Hpy in Hpx. injection Hpx as ->. exact (Hnew Hpe). }
  constructor; cbn [stack seen expanded out]; rewrite <- ?app_assoc.
  - apply NoDup_app. split; [exact (NoDup_map_inv _ _ (W2 c))|split; [exact Hnd|]].
    intros x Hx Hin. exact (Hcross x x Hx Hin eq_refl).
  - intros x Hx. apply in_app_or in Hx. destruct Hx as [Hx|Hx].
    + destruct (W1 c x Hx) as [Hp Hlt]. split; [exact Hlt|]. exists c. split; [exact Hp|left; reflexivity].
    + destruct (Hpar x Hx) as [Hlt [p [Hp Hpe]]]. split; [exact Hlt|]. exists p. split; [exact Hp|right; exact Hpe].
  - intros c' [<-|Hc']; [|exact (Hexp c' Hc')].
    split; [exact Hc|]. right. exists a. split; [exact Ha|exact Hh].
  - intros x y Hx Hy Heq. apply in_app_or in Hx. apply in_app_or in Hy.
    destruct Hx as [Hx|Hx], Hy as [Hy|Hy].
    + exact (NoDup_map_inj (handle h) (kids h c) (W2 c) x y Hx Hy Heq).
    + destruct (Hcross x y Hx Hy Heq).
    + destruct (Hcross y x Hy Hx (eq_sym Heq)).
    + exact (Hinj x y Hx Hy Heq).
  - exact Hout.
Qed.

(* pop a and schedule the children of an object c that has a's handle: a itself, or the current AST of a's handle *)
Lemma inv_pop_expand h s a st c (yielded : bool) :
  WF h -> stack s = a :: st -> Inv h s -> handle h c = handle h a -> c < next h ->
  Inv h {| stack := kids h c ++ st; seen := a :: seen s; expanded := c :: expanded s; out := if yielded then handle h a :: out s else out s |}.
Proof.
  intros Hwf Hst I Hh Hc.
  apply (inv_expand h _ a c Hwf (inv_pop h s a st yielded Hst I) (or_introl eq_refl) Hh Hc). cbn [expanded].
  (* c has not been expanded: it has a parent, as a has, and a's handle is not that of a node popped before *)
  intros Hin. destruct (i_exp h s I c Hin) as [_ [Hnone|[b [Hb Heq]]]].
  - assert (Ha : In a (stack s ++ seen s)) by (rewrite Hst; left; reflexivity).
    destruct (i_par h s I a Ha) as [Hal [p [Hp _]]].
    rewrite (proj2 (proj2 (proj2 Hwf)) c a Hc Hal Hh) in Hnone. congruence.
  - apply (top_handle_new h s a st Hst I b Hb). congruence.
Qed.

Theorem iter_step h h' d s :
  WF h -> Inv h s -> WF h' -> legal h h' ->
  let '(h2, s2, used) := iter h (h', d) s in Inv h2 s2 /\ h2 = if used then h' else h.
Proof.
  intros Hwf Hinv Hwf' Hleg. unfold iter.
  destruct (stack s) as [|a st] eqn:Hst; [exact (conj Hinv eq_refl)|].
  assert (Halt : a < next h) by (apply (i_par h s Hinv a); rewrite Hst; left; reflexivity).
  destruct (alive h a && negb (okf h a)).
  - split; [|reflexivity]. exact (inv_pop_expand h s a st a false Hwf Hst Hinv eq_refl Halt).
  - destruct (alive h a); [|exact (conj (inv_pop h s a st false Hst Hinv) eq_refl)].
    pose proof (inv_transport h h' s Hinv Hleg) as Hinv'.
    rewrite <- (proj2 (proj2 Hleg a Halt)).
    destruct (if d then cur h' (handle h' a) else None) as [c|] eqn:Hcur; (split; [|reflexivity]).
    + destruct d; [|discriminate]. destruct (proj1 (proj2 (proj2 Hwf')) _ _ Hcur) as [Hhc Hcl].
      exact (inv_pop_expand h' s a st c true Hwf' Hst Hinv' Hhc Hcl).
    + exact (inv_pop h' s a st true Hst Hinv').
Qed.

Theorem run_inv fuel : forall h advs s,
  WF h -> Inv h s -> legal_chain h advs -> Inv (fst (run fuel h advs s)) (snd (run fuel h advs s)).
Proof.
  induction fuel as [|f IH]; intros h advs s Hwf Hinv Hch; [exact Hinv|].
  cbn [run]. destruct (stack s) as [|a st] eqn:Hst; [exact Hinv|].
  (* an exhausted list of moves answers with the heap as it is *)
  assert (Hadv : exists h' d, match advs with x :: _ => x | [] => (h, true) end = (h', d) /\
                              WF h' /\ legal h h' /\ legal_chain h' (tl advs)).
  { destruct advs as [|[h' d] r]; [exists h, true|exists h', d]; split; try reflexivity.
    - exact (conj Hwf (conj (legal_refl h) I)).
    - exact Hch. }
  destruct Hadv as (h' & d & -> & Hwf' & Hleg & Hch').
  pose proof (iter_step h h' d s Hwf Hinv Hwf' Hleg) as Hit.
  destruct (iter h (h', d) s) as [[h2 s2] used]. destruct Hit as [Hinv2 ->].
  destruct used; apply IH; assumption.
Qed.

Lemma start_inv h root : WF h -> root < next h -> parent h root = None -> Inv h (start h root).
Proof.
  intros [W1 [W2 [W3 W4]]] Hr Hp. unfold start. constructor; cbn [stack seen expanded out]; rewrite ?app_nil_r.
  - exact (NoDup_map_inv _ _ (W2 root)).
  - intros x Hx. destruct (W1 root x Hx) as [Hpx Hl]. split; [exact Hl|].
    exists root. split; [exact Hpx|left; reflexivity].
  - intros c [<-|[]]. split; [exact Hr|left; exact Hp].
  - exact (NoDup_map_inj (handle h) (kids h root) (W2 root)).
  - split; [constructor|intros g []].
Qed.

(* a handle is only yielded for an AST object that is attached at that moment; after the yield only the children of the
   handle's then-current AST are scheduled (the replacement's children after a replace, nothing after a remove) *)
Theorem iter_yield_spec h h' d s a st :
  stack s = a :: st ->
  let '(h2, s2, used) := iter h (h', d) s in
  (used = true -> alive h a = true /\ okf h a = true /\ out s2 = handle h a :: out s /\
                  stack s2 = (match (if d then cur h' (handle h a) else None) with Some c => kids h' c | None => [] end) ++ st) /\
  (used = false -> out s2 = out s /\ h2 = h /\
                   ((alive h a = false /\ stack s2 = st) \/ (alive h a = true /\ okf h a = false /\ stack s2 = kids h a ++ st))).
Proof.
  intros Hst. unfold iter. rewrite Hst. destruct (alive h a) eqn:Hal; destruct (okf h a) eqn:Hok; cbn [andb negb].
  - destruct (if d then cur h' (handle h a) else None); split; intros H; try discriminate; repeat split.
  - split; intros H; try discriminate. repeat split. right. repeat split.
  - split; intros H; try discriminate. repeat split. left. repeat split.
  - split; intros H; try discriminate. repeat split. left. repeat split.
Qed.
