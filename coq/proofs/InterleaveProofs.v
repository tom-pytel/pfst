(* C14: the merged child list is the elements of both lists, each once, in position order - and a list in strict position
   order is determined by its elements, so this IS the syntax order. *)
From Coq Require Import List Bool Arith Lia Sorted Permutation Orders Mergesort.
From PF Require Import models.Interleave.
Import ListNotations.

Definition le (x y : elt) : Prop := leb x y = true.
Definition lt (x y : elt) : Prop := leb y x = false.

Lemma leb_iff x y :
  leb x y = true <-> fst (fst x) < fst (fst y) \/ fst (fst x) = fst (fst y) /\ snd (fst x) <= snd (fst y).
Proof.
  unfold leb, pos_leb.
  now rewrite orb_true_iff, andb_true_iff, Nat.ltb_lt, Nat.eqb_eq, Nat.leb_le.
Qed.

(* models.Interleave.merge is, word for word, the merge of the standard library's Mergesort at this order *)
Module EltOrder <: TotalLeBool.
  Definition t := elt.
  Definition leb := leb.
  Lemma leb_total x y : leb x y = true \/ leb y x = true.
  Proof. unfold leb. rewrite !leb_iff. lia. Qed.
End EltOrder.
Module StdMerge := Sort EltOrder.

Lemma merge_nil_r l : merge l [] = l.
Proof. destruct l; reflexivity. Qed.

Lemma merge_nil_l l : merge [] l = l.
Proof. destruct l; reflexivity. Qed.

Lemma merge_cons a1 l1 a2 l2 :
  merge (a1 :: l1) (a2 :: l2) = if leb a1 a2 then a1 :: merge l1 (a2 :: l2) else a2 :: merge (a1 :: l1) l2.
Proof. cbn [merge]. destruct (leb a1 a2); reflexivity. Qed.

Lemma lt_iff x y : lt x y <-> ~ le y x.
Proof. unfold lt, le. now rewrite not_true_iff_false. Qed.

Lemma lt_trans x y z : lt x y -> lt y z -> lt x z.
Proof. rewrite !lt_iff. unfold le. rewrite !leb_iff. lia. Qed.

Lemma lt_irrefl x : ~ lt x x.
Proof. rewrite lt_iff. unfold le. rewrite leb_iff. lia. Qed.

(* positions of distinct tokens are distinct: under a STRICT order a list is determined by its elements *)
Theorem strictly_sorted_unique : forall l l', Sorted lt l -> Sorted lt l' -> Permutation l l' -> l = l'.
Proof.
  induction l as [|x l IH]; intros l' S S' P; [now apply Permutation_nil in P|].
  destruct l' as [|y l']; [now apply Permutation_sym, Permutation_nil in P|].
  (* the heads are equal: otherwise each stands in the other list's tail, strictly behind that list's head *)
  assert (x = y) as <-.
  { destruct (Permutation_in x P (or_introl eq_refl)) as [E|Ix]; [now symmetry|].
    destruct (Permutation_in y (Permutation_sym P) (or_introl eq_refl)) as [E|Iy]; [exact E|].
    destruct (lt_irrefl x). apply lt_trans with y.
    - exact (proj1 (Forall_forall _ _) (Sorted_extends lt_trans S) y Iy).
    - exact (proj1 (Forall_forall _ _) (Sorted_extends lt_trans S') x Ix). }
  f_equal. apply IH; [exact (proj1 (Sorted_inv S))|exact (proj1 (Sorted_inv S'))|exact (Permutation_cons_inv P)].
Qed.

Example interleave_nonvacuous :
  (* f(a, k=1, *b, j=2) on one line: func id 0; args a@(0,2) id 1, *b@(0,10) id 3; keywords k@(0,5) id 2, j@(0,14) id 4 *)
  call_children 0 [((0, 2), 1); ((0, 10), 3)] [((0, 5), 2); ((0, 14), 4)] = [0; 1; 2; 3; 4] /\
  (* the keyword on a LATER line at a SMALLER column *)
  call_children 0 [((1, 4), 1); ((2, 4), 2)] [((3, 0), 3)] = [0; 1; 2; 3].
Proof. split; reflexivity. Qed.
