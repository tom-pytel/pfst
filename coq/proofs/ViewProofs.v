(* The view window theorem: every view operation is the corresponding Python list operation applied to the window,
   and leaves the field outside the window untouched (models/View.v over the translated gen/Fixups.v). *)
From Coq Require Import ZArith List Lia.
From PF Require Import kernel.PyBase kernel.Container gen.Fixups models.View
  proofs.ListFacts proofs.FixupsProofs proofs.ContainerProofs.
Import ListNotations.

Lemma if_ltb_min {X} (f : nat -> X) a b : (if Nat.ltb a b then f a else f b) = f (Nat.min b a).
Proof. destruct (Nat.ltb_spec a b); [rewrite Nat.min_r | rewrite Nat.min_l]; reflexivity || lia. Qed.

Section P.
  Context {A : Type}.
  Implicit Types s : vst A.

  Definition hstart s := let '(_, (a, _, _)) := base_indices s in a.
  Definition hstop s := let '(_, (_, b, _)) := base_indices s in b.
  Definition healed s := fst (base_indices s).
  Definition vpre s := firstn (hstart s) (fld s).
  Definition vpost s := skipn (hstop s) (fld s).

  (* _base_indices clips the stop to the field and the start to the stop, and stores both *)
  Lemma base_indices_eq s :
    base_indices s =
      let stop := match vstop s with None => length (fld s) | Some st => Nat.min st (length (fld s)) end in
      let start := Nat.min (vstart s) stop in
      ({| fld := fld s; vstart := start; vstop := option_map (fun _ => stop) (vstop s) |}, (start, stop, length (fld s))).
  Proof.
    unfold base_indices. cbv zeta.
    destruct (vstop s) as [st|]; rewrite ?(if_ltb_min (fun x => (x, Some x))); cbv iota beta;
      rewrite (if_ltb_min (fun x => (x, x))); reflexivity.
  Qed.

  Lemma hstop_eq s : hstop s = match vstop s with None => length (fld s) | Some st => Nat.min st (length (fld s)) end.
  Proof. unfold hstop. now rewrite base_indices_eq. Qed.

  Lemma hstart_eq s : hstart s = Nat.min (vstart s) (hstop s).
  Proof. unfold hstart, hstop. now rewrite base_indices_eq. Qed.

  Lemma healed_eq s : healed s = {| fld := fld s; vstart := hstart s; vstop := option_map (fun _ => hstop s) (vstop s) |}.
  Proof. unfold healed, hstart, hstop. now rewrite base_indices_eq. Qed.

  Lemma base_unfold s : base_indices s = (healed s, (hstart s, hstop s, length (fld s))).
  Proof. unfold healed, hstart, hstop. now rewrite base_indices_eq. Qed.

  Lemma healed_fld s : fld (healed s) = fld s.
  Proof. now rewrite healed_eq. Qed.

  Lemma base_bounds s : hstart s <= hstop s <= length (fld s).
  Proof. rewrite hstart_eq, hstop_eq. destruct (vstop s); lia. Qed.

  Lemma vitems_eq s : vitems s = firstn (hstop s - hstart s) (skipn (hstart s) (fld s)).
  Proof. unfold vitems. now rewrite base_unfold. Qed.

  Lemma parts s : fld s = vpre s ++ vitems s ++ vpost s.
  Proof. unfold vpre, vpost. rewrite vitems_eq. apply split_range, base_bounds. Qed.

  (* conversely, a decomposition of the field on which the healed window sits is the one of `parts` *)
  Lemma window_parts s pre win post :
    fld s = pre ++ win ++ post -> hstart s = length pre -> hstop s = length pre + length win ->
    vpre s = pre /\ vitems s = win /\ vpost s = post.
  Proof.
    intros F H1 H2. unfold vpre, vpost. rewrite vitems_eq, H1, H2, F. repeat split.
    - now apply firstn_app_exact.
    - rewrite skipn_app_exact, Nat.add_comm, Nat.add_sub by reflexivity. now apply firstn_app_exact.
    - rewrite app_assoc. apply skipn_app_exact, app_length.
  Qed.

  Lemma vitems_length s : length (vitems s) = hstop s - hstart s.
  Proof. rewrite vitems_eq, firstn_length, skipn_length. pose proof (base_bounds s). lia. Qed.

  Lemma window_len s : hstart s + length (vitems s) = hstop s.
  Proof. rewrite vitems_length. pose proof (base_bounds s). lia. Qed.

  Lemma vpre_length s : length (vpre s) = hstart s.
  Proof. unfold vpre. rewrite firstn_length. pose proof (base_bounds s). lia. Qed.

  Definition Same_outside s s' win' :=
    vpre s' = vpre s /\ vitems s' = win' /\ vpost s' = vpost s /\ fld s' = vpre s ++ win' ++ vpost s.

  (* Every edit through a view is this: a put into the field between two places i0 <= i1 of the window, after which a
     fixed stop follows the change of length. It is the same put into the window alone, and nothing else moves.
     (Places and stop are related by sums, not differences: truncated subtraction makes lia's certificates large.) *)
  Lemma window_edit s i0 i1 new p0 p1 newstop win' :
    i0 <= i1 <= length (vitems s) -> p0 = hstart s + i0 -> p1 = hstart s + i1 ->
    newstop (hstop s) + i1 = hstop s + i0 + length new ->
    win' = put_slice_spec (vitems s) i0 i1 new ->
    Same_outside s (bump (healed s) (put_slice_spec (fld s) p0 p1 new) newstop) win'.
  Proof.
    intros Hi -> -> Hn Hw. pose proof (window_len s) as L.
    rewrite (parts s), <- (vpre_length s).
    rewrite window_put, <- Hw by assumption.
    set (s' := bump _ _ _).
    assert (Lw : length win' + i1 = length (vitems s) + i0 + length new).
    { subst win'. unfold put_slice_spec. rewrite !app_length, firstn_length, skipn_length. lia. }
    assert (Lp : vstop s = None -> length (vpost s) = 0).
    { intros E. unfold vpost. now rewrite hstop_eq, E, skipn_all. }
    assert (H2 : hstop s' = hstart s + length win').
    { rewrite hstop_eq. unfold s', bump. cbn [vstop fld]. rewrite healed_eq. cbn [vstop].
      rewrite !app_length, vpre_length.
      destruct (vstop s); cbn [option_map]; [|rewrite Lp by reflexivity]; lia. }
    assert (H3 : hstart s' = hstart s).
    { rewrite hstart_eq, H2. unfold s', bump. cbn [vstart]. rewrite healed_eq. cbn [vstart]. lia. }
    destruct (window_parts s' (vpre s) win' (vpost s)) as (P1 & P2 & P3).
    - reflexivity.
    - now rewrite vpre_length.
    - now rewrite vpre_length.
    - repeat split; assumption.
  Qed.

  (* the same with the stop moved by the change of the field's length, as most operations do it *)
  Lemma window_edit_len s i0 i1 new p0 p1 win' :
    i0 <= i1 <= length (vitems s) -> p0 = hstart s + i0 -> p1 = hstart s + i1 ->
    win' = put_slice_spec (vitems s) i0 i1 new ->
    let f := put_slice_spec (fld s) p0 p1 new in
    Same_outside s (bump (healed s) f (fun st => st + length f - length (fld s))) win'.
  Proof.
    intros Hi H0 H1 Hw f. apply (window_edit s i0 i1); try assumption.
    pose proof (window_len s). pose proof (base_bounds s).
    unfold f, put_slice_spec. rewrite !app_length, firstn_length, skipn_length. lia.
  Qed.

  (* v[a:b] = new *)
  Theorem setitem_slice_window s a b new s' :
    setitem_slice s a b new = Some s' ->
    let n := Z.of_nat (length (vitems s)) in
    (py_clamp n a <= py_clamp n (idx_val n b))%Z /\
    Same_outside s s' (py_setslice (vitems s) a (idx_val n b) new).
  Proof.
    unfold setitem_slice. rewrite base_unfold, <- vitems_length.
    destruct (fixup_slice_indices _ _ _ _) as [[i0 i1]|] eqn:E; [|discriminate].
    intros [= <-]. apply fix_slice_some in E as (R0 & R1 & E0 & E1); [|lia]. cbn [idx_val] in E0.
    rewrite <- E0, <- E1. split; [lia|].
    apply (window_edit_len s (Z.to_nat i0) (Z.to_nat i1)); [lia|reflexivity|reflexivity|].
    now rewrite py_setslice_ordered, <- E0, <- E1 by lia.
  Qed.

  (* when it refuses, Python's normalised stop precedes the start (Python would insert at start instead) *)
  Theorem setitem_slice_refuses s a b new :
    setitem_slice s a b new = None ->
    let n := Z.of_nat (length (vitems s)) in (py_clamp n (idx_val n b) < py_clamp n a)%Z.
  Proof.
    unfold setitem_slice. rewrite base_unfold, <- vitems_length.
    rewrite fix_slice_py by lia. cbv zeta. cbn [idx_val].
    destruct (_ <? _)%Z eqn:E; [intros _; lia | discriminate].
  Qed.

  (* del v[a:b] *)
  Theorem delitem_slice_window s a b s' :
    delitem_slice s a b = Some s' ->
    let n := Z.of_nat (length (vitems s)) in
    Same_outside s s' (py_setslice (vitems s) a (idx_val n b) []).
  Proof.
    unfold delitem_slice. rewrite base_unfold, <- vitems_length.
    destruct (fixup_slice_indices _ _ _ _) as [[i0 i1]|] eqn:E; [|discriminate].
    intros [= <-]. apply fix_slice_some in E as (R0 & R1 & E0 & E1); [|lia]. cbn [idx_val] in E0.
    pose proof (window_len s).
    apply (window_edit s (Z.to_nat i0) (Z.to_nat i1)); [lia|reflexivity|reflexivity|cbn [length]; lia|].
    now rewrite py_setslice_ordered, <- E0, <- E1 by lia.
  Qed.

  Lemma one_admitted s i k :
    fixup_one_index (Z.of_nat (hstop s - hstart s)) (Ix i) 0 = Some k ->
    py_index (Z.of_nat (length (vitems s))) i = Some (Z.of_nat (Z.to_nat k)) /\ Z.to_nat k < length (vitems s).
  Proof.
    rewrite <- vitems_length. intros E. rewrite <- fix_one_py, E by lia.
    apply fix_one_range in E. split; [f_equal|]; lia.
  Qed.

  (* v[i] = x *)
  Theorem setitem_one_window s i x s' :
    setitem_one s i x = Some s' ->
    exists k, py_index (Z.of_nat (length (vitems s))) i = Some (Z.of_nat k) /\
              Same_outside s s' (replace_spec (vitems s) k x).
  Proof.
    unfold setitem_one. rewrite base_unfold.
    destruct (fixup_one_index _ _ _) as [k|] eqn:E; [|discriminate].
    intros [= <-]. destruct (one_admitted s i k E) as [P R].
    exists (Z.to_nat k). split; [exact P|].
    apply (window_edit_len s (Z.to_nat k) (S (Z.to_nat k))); [lia|reflexivity|lia|reflexivity].
  Qed.

  (* del v[i] *)
  Theorem delitem_one_window s i s' :
    delitem_one s i = Some s' ->
    exists k, py_index (Z.of_nat (length (vitems s))) i = Some (Z.of_nat k) /\
              Same_outside s s' (remove_spec (vitems s) k).
  Proof.
    unfold delitem_one. rewrite base_unfold.
    destruct (fixup_one_index _ _ _) as [k|] eqn:E; [|discriminate].
    intros [= <-]. destruct (one_admitted s i k E) as [P R].
    exists (Z.to_nat k). split; [exact P|].
    pose proof (window_len s).
    apply (window_edit s (Z.to_nat k) (S (Z.to_nat k))); [lia|reflexivity|lia|cbn [length]; lia|reflexivity].
  Qed.

  (* insert with Python's list.insert clamping relative to the window *)
  Theorem vinsert_window s i new :
    let n := Z.of_nat (length (vitems s)) in
    let k := Z.to_nat (py_clamp n (idx_val n i)) in
    Same_outside s (vinsert s i new) (put_slice_spec (vitems s) k k new).
  Proof.
    intros n k. unfold vinsert. rewrite base_unfold, <- vitems_length. fold n.
    pose proof (window_len s) as L.
    pose proof (py_clamp_range n (idx_val n i) ltac:(lia)) as R. fold k in R.
    match goal with |- Same_outside _ (bump _ (put_slice_spec _ ?p _ _) _) _ => assert (Hk : p = hstart s + k) end.
    { unfold k, py_clamp, idx_val. destruct i as [|z].
      - destruct (n <? 0)%Z eqn:E; lia.
      - destruct (z >? n)%Z eqn:E1; destruct (z <? 0)%Z eqn:E2; destruct (z >=? 0)%Z eqn:E3; lia. }
    rewrite Hk. apply (window_edit_len s k k); [lia|reflexivity|reflexivity|reflexivity].
  Qed.

  (* a length change made elsewhere: the view heals to a window inside the new field (never out of range) *)
  Theorem external_heals s f :
    let s' := external s f in hstart s' <= hstop s' <= length f /\ hstart s' <= vstart s.
  Proof. intros s'. split; [apply (base_bounds s') | rewrite hstart_eq; apply Nat.le_min_l]. Qed.

  Theorem getitem_one_window s i x :
    getitem_one s i = Some x ->
    exists k, py_index (Z.of_nat (length (vitems s))) i = Some (Z.of_nat k) /\ nth_error (vitems s) k = Some x.
  Proof.
    unfold getitem_one. rewrite base_unfold.
    destruct (fixup_one_index _ _ _) as [k|] eqn:E; [|discriminate].
    destruct (one_admitted s i k E) as [P R]. exists (Z.to_nat k). split; [exact P|].
    rewrite vitems_length in R.
    now rewrite vitems_eq, nth_error_firstn, nth_error_skipn by exact R.
  Qed.
End P.
