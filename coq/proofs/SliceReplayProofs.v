(* C13: whatever the output list held and wherever the edited elements come from, the replay leaves exactly the edited list;
   a list in which nothing changed is only recursed into, element by element. *)
From Coq Require Import List Bool Arith Lia.
From PF Require Import models.SliceReplay proofs.ListFacts.
Import ListNotations.

Lemma run_end_bounds p : forall rest j pos, pos <= run_end p j rest pos <= pos + length rest.
Proof.
  induction rest as [|y r IH]; intros j pos; cbn [run_end length]; [lia|].
  destruct (src y) as [[p' j']|]; [|lia].
  destruct (Nat.eqb p' p && Nat.eqb j' (S j)); [|lia].
  specialize (IH (S j) (S pos)). lia.
Qed.

Lemma step_writes x r start out : start <= length out ->
  let '(out1, _, k) := step (x :: r) start out in
  1 <= k <= length (x :: r) /\ exists tail, out1 = firstn start out ++ map eid (firstn k (x :: r)) ++ tail.
Proof.
  intros Hs. unfold step. destruct (no_slice x start) eqn:NS.
  - unfold set_nth. destruct (Nat.leb_spec (length out) start) as [Hl|Hl]; (split; [cbn [length]; lia|]).
    + (* too short: the element is inserted, then set in place *)
      exists (skipn start out).
      now rewrite firstn_app_exact, skipn_app_exact by (rewrite firstn_length; lia).
    + destruct (skipn start out) as [|y rest'] eqn:E.
      * apply (f_equal (@length nat)) in E. rewrite skipn_length in E. cbn [length] in E. lia.
      * now exists rest'.
  - destruct (src x) as [[p j]|] eqn:Sx; [|unfold no_slice in NS; rewrite Sx in NS; discriminate].
    pose proof (run_end_bounds p r j (S start)) as B. cbn [length].
    split; [lia|]. now exists (skipn (run_end p j r (S start)) out).
Qed.

Lemma step_spec x r start out : start <= length out ->
  let '(out1, _, k) := step (x :: r) start out in
  1 <= k <= length (x :: r) /\ start + k <= length out1 /\
  firstn (start + k) out1 = firstn start out ++ map eid (firstn k (x :: r)).
Proof.
  intros Hs. pose proof (step_writes x r start out Hs) as W.
  destruct (step (x :: r) start out) as [[out1 ops] k]. destruct W as (K & tail & ->).
  assert (L : length (firstn start out ++ map eid (firstn k (x :: r))) = start + k)
    by (rewrite app_length, map_length, !firstn_length; lia).
  split; [exact K|]. rewrite app_assoc. split.
  - rewrite app_length, L. lia.
  - now apply firstn_app_exact.
Qed.

Lemma replay_spec : forall fuel rest start out,
  length rest < fuel -> start <= length out ->
  fst (replay fuel rest start out) = firstn start out ++ map eid rest.
Proof.
  induction fuel as [|f IH]; intros rest start out Hf Hs; [lia|].
  cbn [replay]. destruct rest as [|x r].
  - rewrite app_nil_r. destruct (Nat.ltb_spec start (length out)); cbn [fst]; [reflexivity|].
    symmetry. apply firstn_all2. lia.
  - pose proof (step_spec x r start out Hs) as St.
    destruct (step (x :: r) start out) as [[out1 ops1] k]. destruct St as ((K1 & K2) & L1 & F1).
    specialize (IH (skipn k (x :: r)) (start + k) out1).
    destruct (replay f (skipn k (x :: r)) (start + k) out1) as [out2 ops2]. cbn [fst] in *.
    rewrite IH, F1, <- app_assoc, <- map_app, firstn_skipn; [reflexivity| |exact L1].
    rewrite skipn_length. cbn [length] in *. lia.
Qed.

(* "nothing changed"; props/C13.v states it inline, without the first clause, which the third implies *)
Definition in_place (body : list elem) : Prop := forall i x, nth_error body i = Some x -> src x <> None /\ own x = true /\ (exists p, src x = Some (p, i)).

Lemma step_unchanged x r start out p t :
  own x = true -> src x = Some (p, start) -> skipn start out = eid x :: t ->
  step (x :: r) start out = (out, [Recurse start], 1).
Proof.
  intros Ox Sx E. unfold step, no_slice. rewrite Sx, Ox, Nat.eqb_refl.
  destruct (Nat.leb_spec (length out) start) as [L|L].
  - rewrite skipn_all2 in E by exact L. discriminate.
  - unfold set_nth. now rewrite E, <- E, firstn_skipn.
Qed.

Lemma replay_unchanged : forall fuel rest start out,
  length rest < fuel -> skipn start out = map eid rest ->
  (forall i x, nth_error rest i = Some x -> own x = true /\ exists p, src x = Some (p, start + i)) ->
  replay fuel rest start out = (out, map Recurse (seq start (length rest))).
Proof.
  induction fuel as [|f IH]; intros rest start out Hf Hout Hown; [lia|].
  cbn [replay]. destruct rest as [|x r]; cbn [length map] in *.
  - destruct (Nat.ltb_spec start (length out)) as [L|L]; [|reflexivity].
    apply (f_equal (@length nat)) in Hout. rewrite skipn_length in Hout. cbn [length] in Hout. lia.
  - destruct (Hown 0 x eq_refl) as (Ox & p & Sx). rewrite Nat.add_0_r in Sx.
    rewrite (step_unchanged x r start out p _ Ox Sx Hout). cbn [skipn]. rewrite Nat.add_1_r.
    rewrite (IH r (S start) out); [reflexivity|lia| |].
    + change (S start) with (1 + start). now rewrite <- skipn_skipn, Hout.
    + intros i y Hy. rewrite Nat.add_succ_comm. exact (Hown (S i) y Hy).
Qed.

Example slice_replay_nonvacuous :
  (* marked list [10; 11; 12; 13]; edited: [12; 13; new 99; 10]  (12, 13 moved to the front as a run; a pure node; 10 moved; 11 deleted) *)
  let mk i j := {| eid := i; src := Some (0, j); own := true; compat := true |} in
  let body := [mk 12 2; mk 13 3; {| eid := 99; src := None; own := false; compat := false |}; mk 10 0] in
  recurse_slice body [10; 11; 12; 13] =
    ([12; 13; 99; 10], [PutSlice 0 2; Recurse 0; Recurse 1; Recurse 2; PutSlice 3 4; Recurse 3]) /\
  recurse_slice [mk 12 2] [10; 11; 12] = ([12], [PutSlice 0 1; Recurse 0; DelTail 1]) /\
  recurse_slice [mk 10 0; {| eid := 99; src := None; own := false; compat := false |}] [10] = ([10; 99], [Recurse 0; InsertOne 1; Recurse 1]).
Proof. repeat split; reflexivity. Qed.
