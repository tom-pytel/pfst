(* C18: a capture written into a slot inside a string constant reads back as the capture's source, whatever the quotes of
   the template string (single or triple, either quote character), and whatever stands behind the slot in that string. *)
From Coq Require Import List.
From PF Require Import models.StrRepr proofs.StrReprProofs models.SlotEscape.
Import ListNotations.

(* slot_escape_char leaves no quote, backslash or newline bare, so either scanner takes the writing of a character back
   as that character, whatever follows it *)
Theorem slot_reads_back_in_triple_quoted q s T : is_quote q = true ->
  scan q (slot_escape s ++ T) = option_map (app s) (scan q T).
Proof. intros Hq. apply reads_back. intros c X. destruct q; try discriminate; now destruct c. Qed.

Theorem slot_reads_back_in_single_quoted q s T : is_quote q = true ->
  scan1 q (slot_escape s ++ T) = option_map (app s) (scan1 q T).
Proof. intros Hq. apply reads_back. intros c X. destruct q; try discriminate; now destruct c. Qed.

(* the whole literal: a template string that consists of the slot alone *)
Corollary slot_alone_decodes q s : is_quote q = true ->
  decode (triple q ++ slot_escape s ++ triple q) = Some s /\ decode1 (q :: slot_escape s ++ [q]) = Some s.
Proof.
  intros Hq. split.
  - rewrite (decode_triple q _ Hq), slot_reads_back_in_triple_quoted, (scan_close q Hq) by assumption.
    cbn. now rewrite app_nil_r.
  - unfold decode1. rewrite Hq, slot_reads_back_in_single_quoted by assumption.
    assert (E : scan1 q [q] = Some []) by (destruct q; try discriminate; reflexivity).
    rewrite E. cbn. now rewrite app_nil_r.
Qed.

Example slot_escape_nonvacuous :
  (* a capture with quotes of both kinds, a backslash followed by the LETTER t = P 116, a raw tab and a raw newline *)
  let s := [DQ; P 97; BS; P 116; P 98; DQ; TAB; SQ; P 99; SQ; NL] in
  slot_escape s = [BS; DQ; P 97; BS; BS; P 116; P 98; BS; DQ; BS; Lt; BS; SQ; P 99; BS; SQ; BS; Ln] /\
  decode1 (SQ :: slot_escape s ++ [SQ]) = Some s /\ decode (triple DQ ++ slot_escape s ++ triple DQ) = Some s.
Proof. repeat split; reflexivity. Qed.
