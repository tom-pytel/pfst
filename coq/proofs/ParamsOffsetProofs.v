(* The TRANSLATED _params_offset (gen/ParamsOffset.v) computes exactly the position map of the text splice:
   offset point = old end of the region in BYTES on the end line, dln = line delta, dcol = byte delta on that line. *)
From Coq Require Import ZArith List Bool Lia ZifyBool.
From PF Require Import kernel.PyBase kernel.Text gen.ParamsOffset proofs.ListFacts proofs.TextProofs.
Import ListNotations.
Local Open Scope Z_scope.

Lemma py_line_nat (L : pytext) (i : nat) : (i < length L)%nat -> py_line L (Z.of_nat i) = lineAt L i.
Proof.
  intros H. unfold py_line, lineAt.
  destruct (Z.of_nat i <? 0) eqn:E1; [lia|].
  destruct ((Z.of_nat i <? 0) || (Z.of_nat i >=? Z.of_nat (length L))) eqn:E2; [lia|].
  now rewrite Nat2Z.id.
Qed.

Lemma py_line_last (L : pytext) : L <> [] -> py_line L (-1) = last L [].
Proof.
  intros H. unfold py_line. cbn [Z.ltb Z.compare].
  assert (Hl : (0 < length L)%nat) by (destruct L; [congruence|cbn; lia]).
  destruct ((-1 + Z.of_nat (length L) <? 0) || (-1 + Z.of_nat (length L) >=? Z.of_nat (length L))) eqn:E; [lia|].
  replace (Z.to_nat (-1 + Z.of_nat (length L))) with (length L - 1)%nat by lia.
  apply nth_last.
Qed.

Lemma py_prefix_nat (l : pyline) (k : nat) : py_prefix l (Z.of_nat k) = firstn k l.
Proof. unfold py_prefix. destruct (Z.of_nat k <? 0) eqn:E; [lia|]. now rewrite Nat2Z.id. Qed.

Lemma blen_nat_app a b : blen_nat (a ++ b) = (blen_nat a + blen_nat b)%nat.
Proof. induction a as [|c a IH]; [reflexivity|]. cbn [app blen_nat]. lia. Qed.

Theorem params_offset_correct (L put : pytext) (ln col eln ecol : nat) :
  valid_loc L ln col eln ecol -> put <> [] ->
  params_offset L put (Z.of_nat ln) (Z.of_nat col) (Z.of_nat eln) (Z.of_nat ecol)
  = Some (Z.of_nat eln,
          - Z.of_nat (c2b (lineAt L eln) ecol),
          Z.of_nat (length put - 1) - Z.of_nat (eln - ln),
          Z.of_nat (blen_nat (new_prefix L put ln col)) - Z.of_nat (c2b (lineAt L eln) ecol)).
Proof.
  intros (Hle & Hlen & _) Hp. unfold params_offset, c2b, blen.
  rewrite !py_line_nat by lia. rewrite !py_prefix_nat. rewrite py_line_last by assumption.
  destruct put as [|p [|q r]]; [congruence| |].
  - (* single new line *)
    replace (Z.of_nat (length [p]) - 1 =? 0) with true by reflexivity.
    cbn [new_prefix last length]. rewrite blen_nat_app.
    repeat (f_equal; try lia).
  - replace (Z.of_nat (length (p :: q :: r)) - 1 =? 0) with false by (cbn [length]; lia).
    cbn [new_prefix length]. repeat (f_equal; try lia).
Qed.
