(* C04: what leading_trivia may hand to an edit is bounded, consists of trivia lines only, and obeys the options. *)
From Coq Require Import Bool Arith Lia.
From PF Require Import kernel.PyBase models.Trivia.

Lemma scan_up_spec P L lo n :
  lo <= scan_up P L lo n <= lo + n /\ forall i, scan_up P L lo n <= i < lo + n -> P (lineN L i) = true.
Proof.
  induction n as [|m [IHb IHa]]; cbn [scan_up]; [split; lia|].
  destruct (P (lineN L (lo + m))) eqn:E; [|split; lia].
  split; [lia|]. intros i Hi. destruct (Nat.eq_dec i (lo + m)) as [->|Hn]; [exact E|apply IHa; lia].
Qed.

Lemma scan_from_spec P L stop ln :
  Nat.min stop ln <= scan_from P L stop ln <= ln /\ forall i, scan_from P L stop ln <= i < ln -> P (lineN L i) = true.
Proof.
  unfold scan_from. destruct (Nat.leb_spec stop ln) as [H|H]; [|split; lia].
  destruct (scan_up_spec P L stop (ln - stop)) as [Hb Ha]. split; [lia|]. intros i Hi. apply Ha. lia.
Qed.

Lemma first_comment_bounds L k n : k <= first_comment L k n <= k + n.
Proof.
  revert k; induction n as [|m IH]; intros k; cbn [first_comment]; [lia|].
  destruct (is_comment _); [lia|]. specialize (IH (S k)). lia.
Qed.

Definition res_text (r : (nat * nat) * option nat * bool) : nat * nat := fst (fst r).
Definition res_text_ln (r : (nat * nat) * option nat * bool) : nat := fst (fst (fst r)).
Definition res_space (r : (nat * nat) * option nat * bool) : option nat := snd (fst r).
Definition top_of (bound_ln bound_col : nat) : nat := bound_ln + (if Nat.eqb bound_col 0 then 0 else 1).

Lemma comment_is_trivia l : comment_start l = true -> trivia_line l = true.
Proof. unfold comment_start, trivia_line. destruct (skip_ws l) as [|c r]; [discriminate|]. intros ->. reflexivity. Qed.

Lemma empty_cont_is_trivia l : empty_or_cont l = true -> trivia_line l = true.
Proof.
  unfold empty_or_cont, trivia_line. destruct (skip_ws l) as [|c [|d r]]; try discriminate; [reflexivity|].
  intros ->. now rewrite orb_true_r.
Qed.

(* What a result of leading_trivia says, for an element at (ln, col) below `top`: the comment part starts on line c,
   top <= c <= ln, and consists of lines satisfying Q; the space part, if any, starts on a line s, top <= s <= c,
   consists of trivia lines, and is at most n lines when the space option is the number n. *)
Definition space_ok (L : pytext) (top c : nat) (sp : space_opt) (s : nat) : Prop :=
  top <= s <= c /\ (forall i, s <= i < c -> trivia_line (lineN L i) = true) /\ forall n, sp = SInt n -> c - s <= n.

Definition selects (L : pytext) (top ln col : nat) (Q : pyline -> bool) (sp : space_opt) (r : (nat * nat) * option nat * bool) : Prop :=
  let c := res_text_ln r in
  top <= c <= ln /\ res_text r = (if Nat.eqb c ln then (ln, col) else (c, 0)) /\
  (forall i, c <= i < ln -> Q (lineN L i) = true) /\
  forall s, res_space r = Some s -> space_ok L top c sp s.

Lemma selects_intro L top ln col Q sp c S ind : top <= c <= ln -> (forall i, c <= i < ln -> Q (lineN L i) = true) ->
  (forall s, S = Some s -> space_ok L top c sp s) ->
  selects L top ln col Q sp (if Nat.eqb c ln then (ln, col) else (c, 0), S, ind).
Proof.
  intros Hc HQ HS. unfold selects, res_text, res_text_ln, res_space. cbn [fst snd].
  replace (fst (if Nat.eqb c ln then (ln, col) else (c, 0))) with c by (destruct (Nat.eqb_spec c ln); cbn [fst]; congruence).
  auto.
Qed.

(* the space part when no blank line is taken: the element's own line, if it is indented *)
Lemma own_line_space L top c ln col sp s : top <= c ->
  (if Nat.eqb c ln && negb (Nat.eqb col 0) then Some c else None) = Some s -> space_ok L top c sp s.
Proof. intros Hc H. destruct (_ && _); [injection H as <-|discriminate]. repeat split; intros; lia. Qed.

Lemma lt_tail_selects L top ln col Q sp c : top <= c <= ln -> (forall i, c <= i < ln -> Q (lineN L i) = true) ->
  selects L top ln col Q sp (lt_tail L top ln col sp c).
Proof.
  intros Hc HQ. unfold lt_tail.
  destruct (negb (space_on sp) || Nat.eqb c top).
  { apply selects_intro; try assumption. intros s. apply own_line_space. lia. }
  set (lo := match sp with SInt n => Nat.max top (c - n) | _ => top end).
  assert (Hlo : top <= lo <= c /\ forall n, sp = SInt n -> c - n <= lo) by (unfold lo; split; [destruct sp; lia|intros n ->; lia]).
  destruct (scan_from_spec empty_or_cont L lo c) as [Hb Ha].
  destruct (Nat.eqb _ c); apply selects_intro; try assumption.
  - intros s. apply own_line_space. lia.
  - intros s [= <-]. split; [lia|]. split.
    + intros i Hi. now apply empty_cont_is_trivia, Ha.
    + intros n Hn. apply Hlo in Hn. lia.
Qed.

Definition selected (cm : comments_opt) : pyline -> bool :=
  match cm with CBlock => comment_start | _ => trivia_line end.

Lemma selected_trivia cm l : selected cm l = true -> trivia_line l = true /\ (cm = CBlock -> comment_start l = true).
Proof.
  intros H. split; [|intros ->; exact H].
  destruct cm; try exact H. now apply comment_is_trivia.
Qed.

Theorem leading_trivia_selects L bl bc ln col cm sp : top_of bl bc <= ln ->
  selects L (top_of bl bc) ln col (selected cm) sp (leading_trivia L bl bc ln col cm sp).
Proof.
  intros Ht. unfold leading_trivia. fold (top_of bl bc). set (top := top_of bl bc) in *.
  destruct (_ || _).
  { (* the element does not start its line: nothing is selected *)
    unfold selects, res_text, res_text_ln, res_space. cbn [fst snd]. rewrite Nat.eqb_refl.
    repeat split; try lia; discriminate. }
  set (stop := match cm with CLine n => if Nat.ltb top n then n else top | _ => top end).
  assert (Hs : top <= stop).
  { unfold stop. destruct cm as [| | |n]; try lia. destruct (Nat.ltb_spec top n); lia. }
  clearbody stop top. (* only the bounds are used from here on, and lia is cheaper without the bodies *)
  destruct cm as [| | |n]; cbn [selected].
  - apply lt_tail_selects; [|intros i Hi]; lia.
  - (* 'all': the trivia lines start at k, the first comment among them is on line c *)
    destruct (scan_from_spec trivia_line L stop ln) as [Hk Tk].
    set (k := scan_from trivia_line L stop ln) in *.
    pose proof (first_comment_bounds L k (ln - k)) as Hc.
    set (c := first_comment L k (ln - k)) in *. clearbody c k.
    assert (Hkc : top <= k <= c /\ c <= ln) by lia. clear Hk Hc Hs. (* all that is used of k and c; keeps min and - out of the lia calls below *)
    assert (HQ : forall i, c <= i < ln -> trivia_line (lineN L i) = true) by (intros i Hi; apply Tk; lia).
    destruct (negb (space_on sp) || Nat.eqb c k).
    { apply selects_intro; [lia|exact HQ|]. intros s. apply own_line_space. lia. }
    destruct sp as [| |n]; apply selects_intro; try exact HQ; try lia.
    + discriminate.
    + intros s [= <-]. split; [lia|]. split; [|discriminate].
      intros i Hi. apply Tk. lia.
    + intros s [= <-]. split; [lia|]. split.
      * intros i Hi. apply Tk. lia.
      * intros n' [= <-]. lia.
  - destruct (scan_from_spec comment_start L stop ln) as [Hk Tk].
    apply lt_tail_selects; [lia|exact Tk].
  - destruct (scan_from_spec trivia_line L stop ln) as [Hk Tk].
    apply lt_tail_selects; [lia|exact Tk].
Qed.

Theorem leading_bounds L bl bc ln col cm sp : top_of bl bc <= ln ->
  let r := leading_trivia L bl bc ln col cm sp in
  res_text_ln r <= ln /\
  (res_text r <> (ln, col) -> top_of bl bc <= res_text_ln r) /\
  (forall s, res_space r = Some s -> top_of bl bc <= s /\ s <= res_text_ln r).
Proof.
  intros Ht. destruct (leading_trivia_selects L bl bc ln col cm sp Ht) as (Hc & _ & _ & HS).
  repeat split; try lia; apply HS; assumption.
Qed.

(* comments='none' never hands any line above the element to the edit as text *)
Theorem none_keeps_text L bl bc ln col sp : res_text (leading_trivia L bl bc ln col CNone sp) = (ln, col).
Proof.
  unfold leading_trivia. destruct (_ || _); [reflexivity|]. unfold lt_tail. rewrite Nat.eqb_refl.
  destruct (negb (space_on sp) || _); [reflexivity|]. destruct (Nat.eqb _ ln); reflexivity.
Qed.
