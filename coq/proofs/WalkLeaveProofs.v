(* C15: on='leave' is the bottom-up order and on='both' brackets every node, and send(True) on leaving walks the node's
   children again followed by the node, then goes on with what follows.
   The statements about quiet runs have one shape, `works`: a segment on top of the stack is worked off, whatever lies below it, in so
   many iterations that read so many decisions and append so much output. Such statements compose (works_then), so the
   walk of a node is: enter it, then its children one after the other, then leave it. *)
From Coq Require Import List Arith Lia.
From PF Require Import models.WalkLeave proofs.ListFacts.
Import ListNotations.

Section TreeInd.
  Variable P : tree -> Prop.
  Hypothesis H : forall a cs, Forall P cs -> P (Node a cs).
  Fixpoint tree_ind' (t : tree) : P t :=
    match t with
    | Node a cs => H a cs (Forall_all tree_ind' cs)
    end.
End TreeInd.

Lemma size_unfold a cs : size (Node a cs) = S (sizes cs).
Proof. reflexivity. Qed.

Lemma sizes_cons c cs : sizes (c :: cs) = size c + sizes cs.
Proof. reflexivity. Qed.

Lemma lstepss_cons c cs : lstepss (c :: cs) = lsteps c + lstepss cs.
Proof. reflexivity. Qed.

Lemma lsteps_unfold a cs : lsteps (Node a cs) = match cs with [] => 1 | _ => S (S (lstepss cs)) end.
Proof. reflexivity. Qed.

Lemma next_dec_eq ds : next_dec ds = (hd None ds, skipn 1 ds).
Proof. now destruct ds. Qed.

(* quiet and silent are properties of a prefix of the decisions: they split along a sum, and the first decision has
   the property as soon as None, the answer of the exhausted list, has it *)
Lemma prefix_split (P : dec -> Prop) n m ds :
  Forall P (firstn (n + m) ds) -> Forall P (firstn n ds) /\ Forall P (firstn m (skipn n ds)).
Proof.
  rewrite <- (firstn_skipn n (firstn (n + m) ds)), firstn_firstn, <- firstn_skipn_comm, Nat.min_l by lia.
  apply Forall_app.
Qed.

Lemma prefix_hd (P : dec -> Prop) ds : P None -> Forall P (firstn 1 ds) -> P (hd None ds).
Proof. intros H0 H. destruct ds; [exact H0|exact (Forall_inv H)]. Qed.

Section Segments.
  Context {I O R : Type} (run : nat -> list I -> list dec -> list O -> R) (P : dec -> Prop).

  (* whatever the stack holds below seg: k iterations, which read n decisions (each of them P) and yield w, put seg'
     in the place of seg *)
  Definition works (seg seg' : list I) (k n : nat) (w : list O) : Prop :=
    forall st ds out f, Forall P (firstn n ds) ->
      run (k + f) (seg ++ st) ds out = run f (seg' ++ st) (skipn n ds) (out ++ w).

  Lemma works_then s1 s2 s3 k1 k2 n1 n2 w1 w2 :
    works s1 s2 k1 n1 w1 -> works s2 s3 k2 n2 w2 -> works s1 s3 (k1 + k2) (n1 + n2) (w1 ++ w2).
  Proof.
    intros H1 H2 st ds out f Hq. apply prefix_split in Hq. destruct Hq as [Q1 Q2].
    rewrite <- Nat.add_assoc, (H1 _ _ _ _ Q1), (H2 _ _ _ _ Q2), skipn_skipn, (Nat.add_comm n2), app_assoc. reflexivity.
  Qed.

  Lemma works_above r s1 s2 k n w : works s1 s2 k n w -> works (s1 ++ r) (s2 ++ r) k n w.
  Proof. intros H st ds out f Hq. rewrite <- !app_assoc. exact (H _ _ _ _ Hq). Qed.

  Lemma works_nil : works [] [] 0 0 [].
  Proof. intros st ds out f _. now rewrite app_nil_r. Qed.

  Lemma works_eq s1 s2 k n w k' n' : works s1 s2 k n w -> k' = k -> n' = n -> works s1 s2 k' n' w.
  Proof. now intros H -> ->. Qed.
End Segments.
Arguments works_then {I O R run P s1 s2 s3 k1 k2 n1 n2 w1 w2}.
Arguments works_above {I O R run P} r {s1 s2 k n w}.
Arguments works_eq {I O R run P s1 s2 k n w k' n'}.

(* on='leave', while send(True) is not among the decisions read *)
Definition lworks := works lrun (fun d => is_true d = false).

Lemma leave_leaf a : lworks [E (Node a [])] [] 1 1 [a].
Proof.
  intros st ds out f Hq. apply prefix_hd in Hq; [|reflexivity].
  cbn [Nat.add app lrun lstep children label]. now rewrite next_dec_eq, Hq.
Qed.

Lemma leave_left t : lworks [L t] [] 1 1 [label t].
Proof.
  intros st ds out f Hq. apply prefix_hd in Hq; [|reflexivity].
  cbn [Nat.add app lrun lstep]. now rewrite next_dec_eq, Hq.
Qed.

Lemma leave_enter a c cs : lworks [E (Node a (c :: cs))] (map E (c :: cs) ++ [L (Node a (c :: cs))]) 1 0 [].
Proof. intros st ds out f _. now rewrite <- app_assoc, app_nil_r. Qed.

Lemma leave_children cs : Forall (fun c => lworks [E c] [] (lsteps c) (size c) (post c)) cs ->
  lworks (map E cs) [] (lstepss cs) (sizes cs) (flat_map post cs).
Proof.
  induction 1 as [|c cs Hc _ IH]; [apply works_nil|].
  exact (works_then (works_above (map E cs) Hc) IH).
Qed.

Lemma leave_all t : lworks [E t] [] (lsteps t) (size t) (post t).
Proof.
  induction t as [a cs IH] using tree_ind'. destruct cs as [|c cs]; [apply leave_leaf|].
  pose proof (works_then (leave_enter a c cs) (works_then (works_above [L _] (leave_children _ IH)) (leave_left _))) as H.
  apply (works_eq H).
  - rewrite lsteps_unfold. lia.
  - rewrite size_unfold. lia.
Qed.

(* send(True) when t is left: its children again, then t again, then what was queued behind it *)
Theorem leave_resend t st ds out f : quiet (size t) ds ->
  lrun (S (lstepss (children t) + S f)) (L t :: st) (Some true :: ds) out =
  lrun f st (skipn (size t) ds) (out ++ [label t] ++ post t).
Proof.
  destruct t as [a cs]. intros Hq.
  pose proof (works_then (works_above [L (Node a cs)] (leave_children cs (Forall_all leave_all cs))) (leave_left _)) as H.
  cbn [lrun lstep next_dec is_true children label]. rewrite app_assoc.
  replace (lstepss cs + S f) with (lstepss cs + 1 + f) by lia.
  rewrite H by (rewrite Nat.add_1_r; exact Hq).
  rewrite Nat.add_1_r. reflexivity.
Qed.

(* loop iterations a walk of t with on='both' takes when nothing is sent *)
Fixpoint bsteps (t : tree) : nat := match t with Node _ cs => S (S (fold_right (fun c n => bsteps c + n) 0 cs)) end.
Definition bstepss (cs : list tree) : nat := fold_right (fun c n => bsteps c + n) 0 cs.

Lemma two_size a cs : size (Node a cs) + size (Node a cs) = 1 + ((sizes cs + sizes cs) + 1).
Proof. rewrite size_unfold. lia. Qed.

(* on='both', while nothing is sent *)
Definition bworks := works brun (fun d => d = None).

Lemma both_enter t : bworks [E t] (map E (children t) ++ [L t]) 1 1 [(label t, false)].
Proof.
  intros st ds out f Hq. apply prefix_hd in Hq; [|reflexivity].
  cbn [Nat.add app brun bstep]. now rewrite next_dec_eq, Hq, <- app_assoc.
Qed.

Lemma both_leave t : bworks [L t] [] 1 1 [(label t, true)].
Proof.
  intros st ds out f Hq. apply prefix_hd in Hq; [|reflexivity].
  cbn [Nat.add app brun bstep]. now rewrite next_dec_eq, Hq.
Qed.

Lemma both_children cs : Forall (fun c => bworks [E c] [] (bsteps c) (2 * size c) (bracket c)) cs ->
  bworks (map E cs) [] (bstepss cs) (2 * sizes cs) (flat_map bracket cs).
Proof.
  induction 1 as [|c cs Hc _ IH]; [apply works_nil|].
  apply (works_eq (works_then (works_above (map E cs) Hc) IH)); [reflexivity|].
  apply Nat.mul_add_distr_l.
Qed.

Lemma both_all t : bworks [E t] [] (bsteps t) (2 * size t) (bracket t).
Proof.
  induction t as [a cs IH] using tree_ind'.
  pose proof (works_then (both_enter (Node a cs)) (works_then (works_above [L _] (both_children cs IH)) (both_leave _))) as H.
  apply (works_eq H).
  - change (bsteps (Node a cs)) with (S (S (bstepss cs))). lia.
  - rewrite size_unfold. lia.
Qed.

Example leave_nonvacuous :
  let t := Node 0 [Node 1 []; Node 2 [Node 3 []; Node 4 []]; Node 5 []] in
  lrun 50 [E t] [] [] = Some ([1; 3; 4; 2; 5; 0], []) /\
  lrun 50 [E t] [None; None; None; Some true] [] = Some ([1; 3; 4; 2; 3; 4; 2; 5; 0], []) /\
  brun 50 [E (Node 0 [Node 1 []])] [None; None; Some true] [] = Some ([(0, false); (1, false); (1, true); (1, false); (1, true); (0, true)], []).
Proof. repeat split; reflexivity. Qed.
