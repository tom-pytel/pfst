(* C06: the searches by location of fst.py, on the models of models/FindLoc.v.
   find_contains_loc: below a well-formed node the walk over the descendants does what a scan over the children does (a
   sub-tree that ends before the span is walked through without effect), so the search goes down a chain of children that
   hold the span and ends at a node none of whose children holds it.
   find_in_loc: the scan answers with the first node of the walk order that lies within the span.
   allow_exact = 'top' / False: the search stops on the path of the default search, at the first node whose location is
   exactly the span or in front of it. *)
From Coq Require Import List Bool Arith Lia.
From PF Require Import models.FindLoc proofs.ListFacts.
Import ListNotations.

Lemma sizes_cons x l : sizes (x :: l) = size x + sizes l.
Proof. reflexivity. Qed.

Lemma sizes_app l1 l2 : sizes (l1 ++ l2) = sizes l1 + sizes l2.
Proof. apply fold_sum_app. Qed.

Lemma size_kids x : size x = S (sizes (kids x)).
Proof. now destruct x. Qed.

Lemma wf_unfold i s e k :
  wf (Node i s e k) = Nat.leb s e && ordered s k && forallb (fun c => Nat.leb (en c) e) k && forallb wf k.
Proof. reflexivity. Qed.

Lemma size_child x c : In c (kids x) -> size c < size x.
Proof.
  rewrite (size_kids x). induction (kids x) as [|y r IH]; intros H; [destruct H|].
  rewrite sizes_cons. destruct H as [->|H]; [|specialize (IH H)]; lia.
Qed.

Lemma wf_inv x : wf x = true ->
  st x <= en x /\ ordered (st x) (kids x) = true /\ forallb wf (kids x) = true /\
  forall c, In c (kids x) -> wf c = true /\ en c <= en x.
Proof.
  destruct x as [i s e k]. cbn [wf st en kids].
  rewrite !andb_true_iff, Nat.leb_le, !forallb_forall.
  intros [[[H1 H2] H3] H4]. repeat split; auto.
  apply Nat.leb_le. auto.
Qed.

Section Span.
  Variables a b : nat.

  (* the model's `contains` and `a < en x`: the scan passes over a node that ends where the span starts (its first test,
     en x <= a), even when the span is empty *)
  Definition holds (x : tree) : Prop := st x <= a /\ a < en x /\ b <= en x.

  (* the scan over the direct children only *)
  Fixpoint lscan (cs : list tree) : verdict :=
    match cs with
    | [] => Stay
    | x :: r => if Nat.leb (en x) a then lscan r else if Nat.ltb a (st x) then Stay else if Nat.ltb (en x) b then lscan r else Into x
    end.

  Lemma lscan_dead ks rest : Forall (fun c => en c <= a) ks -> lscan (ks ++ rest) = lscan rest.
  Proof.
    induction 1 as [|x ks Hx _ IH]; [reflexivity|].
    cbn [app lscan]. now rewrite (proj2 (Nat.leb_le _ _) Hx).
  Qed.

  (* the induction is on the fuel, over the whole forest still to be walked: a node that ends at or before the start
     of the span leaves its children in front of the others, and they end no later than it does *)
  Lemma scan_is_lscan : forall cs fuel, forallb wf cs = true -> sizes cs < fuel -> scan fuel a b cs = lscan cs.
  Proof.
    intros cs fuel. revert cs. induction fuel as [|f IH]; intros [|x r] Hw Hf; try reflexivity; [lia|].
    cbn [forallb] in Hw. apply andb_true_iff in Hw. destruct Hw as [Wx Wr].
    rewrite sizes_cons, size_kids in Hf. cbn [scan lscan].
    destruct (Nat.leb_spec (en x) a) as [D|D].
    - destruct (wf_inv x Wx) as (_ & _ & Wk & Hk).
      rewrite IH, lscan_dead; [reflexivity| |rewrite forallb_app, Wk; exact Wr|rewrite sizes_app; lia].
      apply Forall_forall. intros c Hc. destruct (Hk c Hc). lia.
    - destruct (Nat.ltb a (st x)); [reflexivity|]. destruct (Nat.ltb (en x) b); [|reflexivity].
      apply IH; [exact Wr|lia].
  Qed.

  Lemma ordered_ge lo cs c : ordered lo cs = true -> forallb wf cs = true -> In c cs -> lo <= st c.
  Proof.
    revert lo. induction cs as [|y r IH]; intros lo Ho Hw Hc; [destruct Hc|].
    cbn [ordered forallb] in Ho, Hw. apply andb_true_iff in Ho, Hw. destruct Ho as [L Ho]. destruct Hw as [Wy Wr].
    apply Nat.leb_le in L.
    destruct Hc as [->|Hc]; [exact L|].
    specialize (IH (en y) Ho Wr Hc). destruct (wf_inv y Wy) as [Hy _]. lia.
  Qed.

  Lemma lscan_spec lo cs : ordered lo cs = true -> forallb wf cs = true ->
    match lscan cs with Stay => forall c, In c cs -> ~ holds c | Into x => In x cs /\ holds x end.
  Proof.
    revert lo. induction cs as [|y r IH]; intros lo Ho Hw; [intros c []|].
    cbn [ordered forallb] in Ho, Hw. apply andb_true_iff in Ho, Hw. destruct Ho as [_ Ho], Hw as [Wy Wr].
    specialize (IH _ Ho Wr).
    assert (Skip : ~ holds y ->
      match lscan r with Stay => forall c, In c (y :: r) -> ~ holds c | Into x => In x (y :: r) /\ holds x end).
    { intros Hy. destruct (lscan r).
      - intros c [<-|Hc]; auto.
      - split; [right|]; apply IH. }
    cbn [lscan]. unfold holds in *.
    destruct (Nat.leb_spec (en y) a); [apply Skip; lia|].
    destruct (Nat.ltb_spec a (st y)).
    - (* everything from y on starts behind the start of the span *)
      intros c [<-|Hc]; [lia|].
      pose proof (ordered_ge _ _ _ Ho Wr Hc). destruct (wf_inv y Wy). lia.
    - destruct (Nat.ltb_spec (en y) b); [apply Skip; lia|].
      split; [now left|lia].
  Qed.

  Lemma scan_kids self fuel : wf self = true -> sizes (kids self) < fuel ->
    match scan fuel a b (kids self) with
    | Stay => forall c, In c (kids self) -> ~ holds c
    | Into x => In x (kids self) /\ holds x /\ wf x = true /\ size x < size self
    end.
  Proof.
    intros Hw Hf. destruct (wf_inv self Hw) as (_ & Ho & Hk & Hc).
    rewrite (scan_is_lscan _ _ Hk Hf).
    pose proof (lscan_spec _ _ Ho Hk) as H.
    destruct (lscan (kids self)) as [|x]; [exact H|].
    destruct H as [Hin Hh].
    exact (conj Hin (conj Hh (conj (proj1 (Hc x Hin)) (size_child _ _ Hin)))).
  Qed.
End Span.

Section Path.
  Variables a b : nat.

  Lemma descend_last : forall fuel self, descend fuel a b self = last (path fuel a b self) self.
  Proof.
    induction fuel as [|f IH]; intros self; [reflexivity|]. cbn [descend path].
    destruct (scan _ a b (kids self)) as [|x]; [reflexivity|].
    now rewrite IH, last_cons.
  Qed.

  (* on a well-formed tree the path is a chain: every node on it is a child of the one before and holds the span *)
  Inductive chain : tree -> list tree -> Prop :=
  | chain_nil t : chain t []
  | chain_cons t x r : In x (kids t) -> holds a b x -> chain x r -> chain t (x :: r).

  Lemma chain_last t p : chain t p -> last p t = t \/ holds a b (last p t).
  Proof.
    induction 1 as [t|t x r _ Hh _ IH]; [now left|].
    rewrite last_cons. right. now destruct IH as [->|].
  Qed.

  (* and it cannot be continued: no child of its last node holds the span *)
  Theorem path_spec : forall fuel self, size self <= fuel -> wf self = true ->
    chain self (path fuel a b self) /\ forall c, In c (kids (last (path fuel a b self) self)) -> ~ holds a b c.
  Proof.
    induction fuel as [|f IH]; intros self Hf Hw; [rewrite size_kids in Hf; lia|]. cbn [path].
    pose proof (scan_kids a b self _ Hw (Nat.lt_succ_diag_r _)) as H.
    destruct (scan _ a b (kids self)) as [|x]; [exact (conj (chain_nil self) H)|].
    destruct H as (Hin & Hh & Wx & Hs). destruct (IH x ltac:(lia) Wx) as [Hc Hl].
    rewrite last_cons. exact (conj (chain_cons self x _ Hin Hh Hc) Hl).
  Qed.

  Theorem descend_spec fuel self : size self <= fuel -> wf self = true ->
    let r := descend fuel a b self in
    (r = self \/ holds a b r) /\ forall c, In c (kids r) -> ~ holds a b c.
  Proof.
    intros Hf Hw. cbn zeta. rewrite descend_last.
    destruct (path_spec fuel self Hf Hw) as [Hc Hl]. exact (conj (chain_last _ _ Hc) Hl).
  Qed.

  Lemma scan_m_scan m : forall fuel todo,
    scan_m m fuel a b todo =
      match scan fuel a b todo with
      | Stay => StayM
      | Into x => if exact x a b then match m with MExact => IntoM x | MTop => StopM x | MStrict => StayM end else IntoM x
      end.
  Proof.
    induction fuel as [|f IH]; intros todo; [reflexivity|].
    destruct todo as [|x rest]; [reflexivity|]. cbn [scan_m scan].
    destruct (Nat.leb (en x) a); [apply IH|]. destruct (Nat.ltb a (st x)); [reflexivity|]. destruct (Nat.ltb (en x) b); [apply IH|]. reflexivity.
  Qed.

  (* where each mode stops on the path of the default search: True at its end, 'top' at the first node on it whose
     location is exactly the span (else at its end), False in front of that node. first_or uses the default it is given
     only on the empty path: behind x :: r it goes on with last r x. *)
  Theorem descend_m_path m : forall fuel self,
    descend_m m fuel a b self =
      match m with
      | MExact => last (path fuel a b self) self
      | MTop => first_or (fun x => exact x a b) (path fuel a b self) (last (path fuel a b self) self)
      | MStrict => before_first (fun x => exact x a b) (path fuel a b self) self
      end.
  Proof.
    induction fuel as [|f IH]; intros self; [now destruct m|].
    cbn [descend_m path]. rewrite scan_m_scan.
    destruct (scan _ a b (kids self)) as [|x]; [now destruct m|].
    destruct m; cbn [first_or before_first]; destruct (exact x a b); rewrite ?IH, ?last_cons; reflexivity.
  Qed.
End Path.

Example find_nonvacuous :
  (* x = f(a, bb): Module 0 [0,11) > Assign 1 [0,11) > Name x 2 [0,1), Call 3 [4,11) > Name f 4 [4,5), a 5 [6,7), bb 6 [9,11) *)
  let t := Node 0 0 11 [Node 1 0 11 [Node 2 0 1 []; Node 3 4 11 [Node 4 4 5 []; Node 5 6 7 []; Node 6 9 11 []]]] in
  wf t = true /\ find_contains t 9 11 = Some 6 /\ find_contains t 7 9 = Some 3 /\ find_contains t 2 3 = Some 1 /\ find_contains t 6 10 = Some 3 /\ find_contains t 0 12 = None.
Proof. repeat split; reflexivity. Qed.

Example modes_nonvacuous :
  (* Module [0,9) > Expr [2,5) > Name [2,5); span [2,5) *)
  let t := Node 0 0 9 [Node 1 0 1 []; Node 2 2 5 [Node 3 2 5 []]] in
  find_contains_m MExact t 2 5 = Some 3 /\ find_contains_m MTop t 2 5 = Some 2 /\ find_contains_m MStrict t 2 5 = Some 0 /\
  find_contains_m MTop t 2 4 = Some 3 /\ find_contains_m MStrict (Node 2 2 5 [Node 3 2 5 []]) 2 5 = None /\ find_contains_m MTop (Node 2 2 5 [Node 3 2 5 []]) 2 5 = Some 2.
Proof. vm_compute. repeat split; reflexivity. Qed.

Section SpanIn.
  Variables a b : nat.

  Definition within (x : tree) : Prop := a <= st x /\ en x <= b.

  Fixpoint desc (t : tree) : list tree := let 'Node _ _ _ k := t in flat_map (fun c => c :: desc c) k.
  Definition descs (l : list tree) : list tree := flat_map (fun c => c :: desc c) l.

  Lemma desc_kids t : desc t = descs (kids t).
  Proof. now destruct t. Qed.

  (* the walk order: every node of the forest, parents in front of their children *)
  Lemma descs_cons c k : descs (c :: k) = c :: desc c ++ descs k.
  Proof. reflexivity. Qed.

  Lemma descs_cons_kids c k : descs (c :: k) = c :: descs (kids c ++ k).
  Proof. unfold descs. now rewrite flat_map_app, <- desc_kids. Qed.

  Lemma descs_length k : length (descs k) = sizes k.
  Proof.
    assert (G : forall n k, sizes k <= n -> length (descs k) = sizes k); [|exact (G _ k (le_n _))].
    clear k. induction n as [|n IH]; intros [|c k] H; try reflexivity; rewrite sizes_cons, size_kids in *; [lia|].
    rewrite descs_cons_kids. cbn [length].
    rewrite IH; rewrite sizes_app; lia.
  Qed.

  Theorem scan_in_is_first : forall fuel todo, sizes todo < fuel ->
    scan_in fuel a b todo = find (fun x => inside x a b) (descs todo).
  Proof.
    induction fuel as [|f IH]; intros todo Hf; [lia|].
    destruct todo as [|y rest]; [reflexivity|].
    cbn [scan_in]. rewrite descs_cons_kids. cbn [find]. unfold inside at 1.
    rewrite sizes_cons, size_kids in Hf. rewrite <- IH by (rewrite sizes_app; lia).
    rewrite Nat.ltb_antisym. now destruct (Nat.leb a (st y)), (Nat.leb (en y) b).
  Qed.

  Lemma inside_within x : inside x a b = true <-> within x.
  Proof. unfold inside, within. now rewrite andb_true_iff, !Nat.leb_le. Qed.
End SpanIn.

Example find_in_nonvacuous :
  let t := Node 0 0 11 [Node 1 0 11 [Node 2 0 1 []; Node 3 4 11 [Node 4 4 5 []; Node 5 6 7 []; Node 6 9 11 []]]] in
  find_in t 5 11 = Some 5 /\ find_in t 4 11 = Some 3 /\ find_in t 0 11 = Some 0 /\ find_in t 7 8 = None /\ find_in t 2 7 = Some 4.
Proof. repeat split; reflexivity. Qed.
