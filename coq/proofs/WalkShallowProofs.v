(* C15: in a non-recursing on='both' walk, send(True) at the entry yield of a node makes its events exactly its bracket:
   entered once, its whole sub-tree walked, left once; without a send() it is entered and left. *)
From Coq Require Import List Lia.
From PF Require Import models.WalkLeave models.WalkShallow proofs.ListFacts proofs.WalkLeaveProofs.
Import ListNotations.

Lemma bstep_cons i st ds out :
  bstep (i :: st) ds out = let '(stk', ds', out') := bstep [i] ds out in (stk' ++ st, ds', out').
Proof.
  destruct i as [t|t]; cbn [bstep]; destruct (next_dec ds) as [d ds']; cbn.
  - rewrite <- app_assoc. reflexivity.
  - rewrite app_nil_r. reflexivity.
Qed.

Lemma srun_full : forall f stk ds out, srun f (map SI stk) ds out = brun f stk ds out.
Proof.
  induction f as [|f IH]; intros stk ds out; destruct stk as [|i st]; try reflexivity.
  cbn [map srun brun sstep]. rewrite (bstep_cons i st ds out).
  destruct (bstep [i] ds out) as [[stk' ds'] out']. rewrite <- map_app. apply IH.
Qed.

Theorem shallow_entry_send t st ds out f : silent (2 * sizes (children t) + 1) ds ->
  srun (S (bstepss (children t) + S f)) (SN t :: map SI st) (Some true :: ds) out =
  srun f (map SI st) (skipn (2 * sizes (children t) + 1) ds) (out ++ bracket t).
Proof.
  destruct t as [a cs]. cbn [children]. intros Hq.
  pose proof (works_then (works_above [L (Node a cs)] (both_children cs (Forall_all both_all cs))) (both_leave _)) as H.
  cbn [srun sstep next_dec is_true children label].
  replace (map (fun c => SI (E c)) cs ++ SI (L (Node a cs)) :: map SI st) with (map SI ((map E cs ++ [L (Node a cs)]) ++ st))
    by (rewrite <- app_assoc, map_app, map_map; reflexivity).
  replace (bstepss cs + S f) with (bstepss cs + 1 + f) by lia.
  rewrite !srun_full, (H _ _ _ _ Hq), <- app_assoc. reflexivity.
Qed.

Theorem shallow_no_send t st ds out f :
  srun (S (S f)) (SN t :: map SI st) (None :: None :: ds) out = srun f (map SI st) ds (out ++ [(label t, false); (label t, true)]).
Proof.
  cbn [srun sstep next_dec is_true app bstep map]. rewrite <- app_assoc. reflexivity.
Qed.

Definition sworks := works srun (fun d => d = None).

Lemma shallow_pass t : sworks [SN t] [] 2 2 [(label t, false); (label t, true)].
Proof.
  intros st ds out f Hq. apply (prefix_split _ 1 1) in Hq. destruct Hq as [Q0 Q1].
  apply prefix_hd in Q0, Q1; try reflexivity.
  cbn [Nat.add app srun sstep]. rewrite next_dec_eq, Q0.
  cbn [is_true app srun sstep bstep]. rewrite next_dec_eq, Q1.
  rewrite skipn_skipn, <- app_assoc. reflexivity.
Qed.

(* a non-recursing walk nobody talks to: each child is entered and left, nothing below it is walked *)
Theorem shallow_quiet cs : sworks (map SN cs) [] (2 * length cs) (2 * length cs) (flat_map (fun c => [(label c, false); (label c, true)]) cs).
Proof.
  induction cs as [|c cs IH]; [apply works_nil|].
  apply (works_eq (works_then (works_above (map SN cs) (shallow_pass c)) IH)); cbn [length]; lia.
Qed.

Example shallow_nonvacuous :
  let t := Node 0 [Node 1 [Node 2 []; Node 3 [Node 4 []]]; Node 5 []] in
  shallow 100 t [] = Some ([(0, false); (1, false); (1, true); (5, false); (5, true); (0, true)], []) /\
  shallow 100 t [Some true] = Some ([(0, false); (1, false); (2, false); (2, true); (3, false); (4, false); (4, true); (3, true); (1, true); (5, false); (5, true); (0, true)], []) /\
  shallow 100 t [Some true; None; None; Some false] = Some ([(0, false); (1, false); (2, false); (2, true); (3, false); (3, true); (1, true); (5, false); (5, true); (0, true)], []).
Proof. vm_compute. repeat split; reflexivity. Qed.
