(* The scope-restricted walk yields exactly the nodes the declarative assignment gives to that scope. *)
From Coq Require Import List Bool.
From PF Require Import models.Scope proofs.ListFacts.
Import ListNotations.

Section Ind.
  Variable P : snode -> Prop.
  Hypothesis H : forall i k w outer inner, Forall P outer -> Forall P inner -> P (SN i k w outer inner).
  Fixpoint snode_ind' (t : snode) : P t :=
    let 'SN i k w outer inner := t in
    H i k w outer inner
      (Forall_all snode_ind' outer) (Forall_all snode_ind' inner).
End Ind.

Lemma in_flat_map_forall {A B} (f g : A -> list B) (Q : A -> Prop) l x :
  Forall Q l -> (forall a, Q a -> (In x (f a) <-> In x (g a))) -> (In x (flat_map f l) <-> In x (flat_map g l)).
Proof.
  intros HF Hq. induction HF as [|a l Ha _ IH]; simpl; [tauto|].
  rewrite !in_app_iff, (Hq a Ha), IH. tauto.
Qed.

(* What traversing a sub-tree with `chain` gives to a scope c that is not a node of that sub-tree: the nodes of the walk if
   c is the current scope (head of the chain), the hoisted walrus targets if c is above it. Stated as a disjunction, so
   that nothing has to be assumed about repetitions in the chain. *)
Definition given (chain : list nat) (c x : nat) (walk hoist : list nat) : Prop :=
  (hd_error chain = Some c /\ In x walk) \/ (In c (tl chain) /\ In x hoist).

Lemma given_app chain c x a b a' b' :
  given chain c x (a ++ b) (a' ++ b') <-> given chain c x a a' \/ given chain c x b b'.
Proof. unfold given. rewrite !in_app_iff. tauto. Qed.

Lemma given_cons chain c x i a a' b' :
  given chain c x (i :: a) (a' ++ b') <-> given chain c x [i] a' \/ given chain c x a b'.
Proof. exact (given_app chain c x [i] a a' b'). Qed.

Lemma given_nil chain c x : ~ given chain c x [] [].
Proof. unfold given. cbn [In]. tauto. Qed.

(* below a nested comprehension i the chain is i :: chain: a scope c of the old chain is now above the current one *)
Lemma given_push chain c x i walk hoist : i <> c ->
  (given (i :: chain) c x walk hoist <-> given chain c x hoist hoist).
Proof.
  unfold given. intros Hn. destruct chain as [|cur above]; cbn [hd_error tl In]; intuition congruence.
Qed.

(* the pairs the node itself contributes *)
Lemma here_given chain c x i (w : bool) :
  In (x, c) match chain with [] => [] | cur :: above => (i, cur) :: (if w then map (pair i) above else []) end <->
  given chain c x [i] (if w then [i] else []).
Proof.
  unfold given. destruct chain as [|cur above], w; cbn [hd_error tl In]; rewrite ?in_map_iff; firstorder congruence.
Qed.

Lemma assign_given_list l chain c x :
  Forall (fun t => forall chain, ~ In c (ids t) -> (In (x, c) (assign chain t) <-> given chain c x (visit t) (hoisted t))) l ->
  ~ In c (flat_map ids l) ->
  (In (x, c) (flat_map (assign chain) l) <-> given chain c x (flat_map visit l) (flat_map hoisted l)).
Proof.
  induction 1 as [|t l Ht _ IH]; cbn [flat_map]; intros Hc.
  - pose proof (given_nil chain c x). cbn [In]. tauto.
  - rewrite in_app_iff in Hc. rewrite in_app_iff, given_app, Ht, IH; tauto.
Qed.

Lemma assign_given t c x : forall chain, ~ In c (ids t) ->
  (In (x, c) (assign chain t) <-> given chain c x (visit t) (hoisted t)).
Proof.
  induction t as [i k w outer inner IHo IHi] using snode_ind'. intros chain Hc.
  cbn [ids In] in Hc. rewrite in_app_iff in Hc.
  cbn [assign visit hoisted].
  rewrite !in_app_iff, given_cons, given_app, here_given.
  rewrite (assign_given_list outer), (assign_given_list inner) by tauto.
  do 2 apply or_iff_compat_l.
  destruct k as [|[|]].
  - reflexivity.
  - apply given_push. tauto.
  - (* a nested function / class / lambda restarts the chain: nothing below is given to c *)
    unfold given. cbn [hd_error tl In]. intuition congruence.
Qed.

Theorem own_is_assigned i k w outer inner above x : ~ In i above -> ~ In i (flat_map ids inner) ->
  (In x (own (SN i k w outer inner)) <-> In (x, i) (flat_map (assign (i :: above)) inner)).
Proof.
  intros Ha Hi. rewrite (assign_given_list inner); [|apply Forall_forall; intros t _; apply assign_given|assumption].
  unfold given, own. cbn [hd_error tl]. tauto.
Qed.

(* without walrus targets the rule gives every node exactly one owner: the pairs list the nodes once each *)
Fixpoint no_walrus (t : snode) : bool :=
  let 'SN _ _ w outer inner := t in negb w && forallb no_walrus outer && forallb no_walrus inner.

Lemma assign_fst_list l cur above :
  Forall (fun t => forall cur above, no_walrus t = true -> map fst (assign (cur :: above) t) = ids t) l ->
  forallb no_walrus l = true -> map fst (flat_map (assign (cur :: above)) l) = flat_map ids l.
Proof.
  induction 1 as [|t l Ht _ IH]; cbn [flat_map forallb]; [reflexivity|].
  intros [Hw Hl]%andb_true_iff. now rewrite map_app, Ht, IH.
Qed.

Lemma assign_fst t : forall cur above, no_walrus t = true -> map fst (assign (cur :: above) t) = ids t.
Proof.
  induction t as [i k w outer inner IHo IHi] using snode_ind'. intros cur above Hw.
  cbn [no_walrus] in Hw. apply andb_true_iff in Hw as [[Hw Hwo]%andb_true_iff Hwi].
  apply negb_true_iff in Hw as ->.
  cbn [assign ids]. rewrite !map_app. cbn [map fst app].
  rewrite (assign_fst_list outer) by assumption.
  destruct k as [|[|]]; now rewrite (assign_fst_list inner).
Qed.
