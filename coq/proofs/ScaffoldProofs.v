(* Proofs about models/Scaffold.v: an edit at or below the first kept line is seen by the copy exactly as by the real source;
   an edit above it is not. *)
From Coq Require Import List NArith Arith Lia.
From PF Require Import kernel.Text models.Scaffold proofs.ListFacts.
Import ListNotations.

Lemma lineAt_scaffold L pln i : pln <= i -> lineAt (scaffold L pln) i = lineAt L i.
Proof.
  intros H. unfold lineAt, scaffold. rewrite app_nth2 by (rewrite repeat_length; lia). rewrite repeat_length.
  rewrite nth_skipn. f_equal. lia.
Qed.

Lemma firstn_scaffold L pln n : pln <= n -> firstn n (scaffold L pln) = repeat [] pln ++ firstn (n - pln) (skipn pln L).
Proof.
  intros H. unfold scaffold. rewrite firstn_app, repeat_length. rewrite firstn_all2 by (rewrite repeat_length; lia). reflexivity.
Qed.

Lemma skipn_scaffold L pln n : pln <= n -> skipn n (scaffold L pln) = skipn n L.
Proof.
  intros H. unfold scaffold. rewrite skipn_app, repeat_length. rewrite skipn_all2 by (rewrite repeat_length; lia).
  cbn [app]. rewrite skipn_skipn. f_equal. lia.
Qed.

Theorem scaffold_sees_edit_below L put pln ln col eln ecol :
  pln <= ln -> ln <= eln -> ln <= length L ->
  put_spec (scaffold L pln) put ln col eln ecol = scaffold (put_spec L put ln col eln ecol) pln.
Proof.
  intros Hp Hle Hlen. unfold put_spec.
  rewrite !lineAt_scaffold by lia. rewrite firstn_scaffold by lia. rewrite skipn_scaffold by lia.
  (* both sides are  blanks ++ lines pln .. ln-1 of L ++ the glued lines ++ the lines behind eln *)
  unfold scaffold at 1. rewrite <- app_assoc. f_equal.
  rewrite skipn_app, firstn_length, Nat.min_l by lia.
  replace (pln - ln) with 0 by lia. cbn [skipn]. f_equal.
  rewrite firstn_skipn_comm. do 2 f_equal. lia.
Qed.

Lemma blank_above_scaffold L pln : blank_above (scaffold L pln) pln = true.
Proof.
  unfold blank_above, scaffold. rewrite firstn_app_exact by apply repeat_length.
  apply forallb_forall. intros x Hx. apply repeat_spec in Hx. now subst.
Qed.

(* above the first kept line the edit is lost: `#x` / `y = 1` with the `#` deleted - the real source has a new first line `x`,
   the copy still only `y = 1` *)
Theorem scaffold_misses_edit_above :
  exists L put pln ln col eln ecol, ln < pln /\
    blank_above (put_spec L put ln col eln ecol) pln = false /\ blank_above (put_spec (scaffold L pln) put ln col eln ecol) pln = true
    /\ skipn pln (put_spec (scaffold L pln) put ln col eln ecol) = skipn pln L.
Proof.
  exists [[35; 120]; [121; 32; 61; 32; 49]]%N, [[]], 1, 0, 0, 0, 1. repeat split; try lia; reflexivity.
Qed.
