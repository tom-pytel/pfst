(* A pass flushes exactly the nodes it moves, and a query fills the cache from the node's present position: coherence
   (a cached answer is the answer at the present position) survives every step, with no hypothesis on the passes.
   Queries move nothing, so the positions - and with coherence the answers - after a history are those after the same
   history without its queries. *)
From Coq Require Import List ZArith.
From PF Require Import kernel.OffsetBase models.Cache.
Import ListNotations.

Section P.
  Variable answer : npos -> Z.
  Notation coh := (coherent answer).

  Lemma ask_pos n : c_pos (fst (ask answer n)) = c_pos n.
  Proof. unfold ask. now destruct (c_cache n). Qed.

  Lemma ask_coherent n : coh n -> coh (fst (ask answer n)).
  Proof. intros H. unfold ask. destruct (c_cache n) eqn:E; [exact H|]. intros v [= <-]. reflexivity. Qed.

  Lemma ask_answer n : coh n -> snd (ask answer n) = answer (c_pos n).
  Proof. intros H. unfold ask. destruct (c_cache n) eqn:E; [now apply H|reflexivity]. Qed.

  Lemma pass_coherent mv v n : coh n -> coh (pass_node mv v n).
  Proof. intros H. unfold pass_node. destruct v; [intros w; cbn; discriminate|exact H]. Qed.

  Lemma cstep_coherent l o : Forall coh l -> Forall coh (cstep answer l o).
  Proof.
    intros H. destruct o as [i|mv vs]; cbn [cstep].
    - revert i. induction H as [|x r Hx Hr IH]; intros [|i]; cbn [update_nth]; constructor; auto using ask_coherent.
    - revert vs. induction H as [|x r Hx Hr IH]; intros [|v vr]; cbn [zipw]; constructor; auto using pass_coherent.
  Qed.

  Theorem coherent_history ops : forall l, Forall coh l -> Forall coh (fold_left (cstep answer) ops l).
  Proof.
    induction ops as [|o ops IH]; intros l H; [exact H|]. cbn [fold_left]. now apply IH, cstep_coherent.
  Qed.

  Fixpoint no_asks (ops : list (cop)) : list (cop) :=
    match ops with [] => [] | Ask _ :: r => no_asks r | o :: r => o :: no_asks r end.

  Lemma positions_update_nth l i : positions (update_nth l i (fun n => fst (ask answer n))) = positions l.
  Proof.
    unfold positions. revert i; induction l as [|x r IH]; intros [|i]; cbn [update_nth map]; try reflexivity.
    - now rewrite ask_pos.
    - now rewrite IH.
  Qed.

  Lemma positions_zipw mv vs l l' : positions l = positions l' -> positions (zipw mv vs l) = positions (zipw mv vs l').
  Proof.
    unfold positions. revert vs l'; induction l as [|x r IH]; intros vs [|y r'] H; try discriminate.
    - now destruct vs.
    - injection H as Hx Hr. destruct vs as [|v vr]; cbn [zipw map].
      + now rewrite Hx, Hr.
      + f_equal; [|now apply IH]. destruct v; cbn; congruence.
  Qed.

  Theorem positions_query_independent ops : forall l l', positions l = positions l' ->
    positions (fold_left (cstep answer) ops l) = positions (fold_left (cstep answer) (no_asks ops) l').
  Proof.
    induction ops as [|o ops IH]; intros l l' H; [exact H|]. destruct o as [i|mv vs]; cbn [fold_left no_asks cstep].
    - apply IH. now rewrite positions_update_nth.
    - apply IH. now apply positions_zipw.
  Qed.

  (* no stale cache: whatever was asked and moved before, a query answers from the node's present position *)
  Lemma history_answer ops l i n : Forall coh l ->
    nth_error (fold_left (cstep answer) ops l) i = Some n -> snd (ask answer n) = answer (c_pos n).
  Proof.
    intros Hl Hn. apply ask_answer.
    eapply Forall_forall; [apply coherent_history, Hl|]. eapply nth_error_In, Hn.
  Qed.

  Theorem answers_query_independent ops l l' i n n' :
    Forall coh l -> Forall coh l' -> positions l = positions l' ->
    nth_error (fold_left (cstep answer) ops l) i = Some n ->
    nth_error (fold_left (cstep answer) (no_asks ops) l') i = Some n' ->
    snd (ask answer n) = snd (ask answer n').
  Proof.
    intros Hl Hl' Hp Hn Hn'.
    rewrite (history_answer _ _ _ _ Hl Hn), (history_answer _ _ _ _ Hl' Hn'). f_equal.
    pose proof (positions_query_independent ops l l' Hp) as P.
    apply (f_equal (fun m => nth_error m i)) in P. unfold positions in P.
    rewrite !nth_error_map, Hn, Hn' in P. now injection P.
  Qed.
End P.
