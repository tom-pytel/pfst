(* Generic soundness of the compatibility check: a stepping program that `compat` accepts against a child order computes,
   for EVERY node shape (all list lengths, all optional-field occupancies), the syntax-order successor (predecessor). *)
From Coq Require Import List String Bool Arith Lia.
From PF Require Import models.Traverse.
Import ListNotations.

Definition tag (f : string) (l : list nat) : list (string * nat) := map (fun i => (f, i)) l.

(* the children of one field in direction order *)
Definition seg (d : dir) (f : string) (n : nat) : list (string * nat) :=
  match d with Fwd => tag f (seq 0 n) | Bwd => tag f (rev (seq 0 n)) end.

Definition flat (d : dir) (o : occ) (items : list citem) : list (string * nat) :=
  flat_map (fun it => let 'CI f _ := it in seg d f (o f)) items.

Lemma flat_map_rev {A B} (g : A -> list B) l : rev (flat_map g l) = flat_map (fun x => rev (g x)) (rev l).
Proof.
  induction l as [|a l IH]; [reflexivity|]. cbn [flat_map rev]. rewrite rev_app_distr, IH.
  rewrite flat_map_app. cbn. now rewrite app_nil_r.
Qed.

Lemma children_dir_flat d items o : children_dir d items o = flat d o (items_dir d items).
Proof.
  destruct d; [reflexivity|]. unfold children_dir, children_of, flat, items_dir. rewrite flat_map_rev.
  apply flat_map_ext. intros [f k]. unfold seg, tag. now rewrite map_rev.
Qed.

Lemma seg_bwd_S f n : seg Bwd f (S n) = (f, n) :: seg Bwd f n.
Proof. unfold seg, tag. now rewrite seq_S, rev_app_distr. Qed.

Lemma hd_seg d f n tail :
  hd_error (seg d f n ++ tail) = if Nat.ltb 0 n then Some (f, match d with Fwd => 0 | Bwd => n - 1 end) else hd_error tail.
Proof.
  destruct n; [now destruct d|]. destruct d; [reflexivity|].
  rewrite seg_bwd_S. cbn. now rewrite Nat.sub_0_r.
Qed.

Lemma seg_fields d f n x : In x (seg d f n) -> fst x = f.
Proof. intros H. destruct d; apply in_map_iff in H; destruct H as (i & <- & _); reflexivity. Qed.

Lemma compat_rest_sound d p rest o idx :
  compat_rest p rest = true -> wf_occ rest o -> exec d p o idx = hd_error (flat d o rest).
Proof.
  revert p. induction rest as [|[g k] rest IH]; intros p Hc Hw.
  - destruct p as [|[] [|]]; try discriminate. reflexivity.
  - assert (Hw' : wf_occ rest o) by (intros f' k' Hin; apply Hw; now right).
    pose proof (Hw g k (or_introl eq_refl)) as Hg.
    cbn [flat flat_map]. fold (flat d o rest). rewrite hd_seg.
    destruct k; destruct p as [|[] p]; cbn [compat_rest] in Hc; try discriminate Hc.
    + (* a required field tested like an optional one *)
      rewrite andb_true_iff, String.eqb_eq in Hc. destruct Hc as [<- _].
      cbn [exec]. rewrite Hg. now destruct d.
    + apply String.eqb_eq in Hc. subst f.
      cbn [exec]. rewrite Hg. now destruct d.
    + rewrite andb_true_iff, String.eqb_eq in Hc. destruct Hc as [<- Hc].
      cbn [exec]. rewrite <- (IH p Hc Hw').
      destruct (o g) as [|[|n]]; [reflexivity|now destruct d|lia].
    + rewrite andb_true_iff, String.eqb_eq in Hc. destruct Hc as [<- Hc].
      cbn [exec]. now rewrite <- (IH p Hc Hw').
Qed.

Lemma pos_eqb_tag f i j : pos_eqb (f, i) (f, j) = Nat.eqb i j.
Proof. unfold pos_eqb. cbn. now rewrite String.eqb_refl. Qed.

Lemma succ_up f tail idx : forall n s, s <= idx < s + n ->
  succ_in (tag f (seq s n) ++ tail) (f, idx) = if Nat.ltb (S idx) (s + n) then Some (f, S idx) else hd_error tail.
Proof.
  induction n as [|n IH]; intros s H; [lia|].
  cbn [seq tag map app succ_in]. rewrite pos_eqb_tag.
  destruct (Nat.eqb_spec s idx) as [->|Hn].
  - destruct n; cbn [seq map app hd_error].
    + now rewrite (proj2 (Nat.ltb_ge _ _)) by lia.
    + now rewrite (proj2 (Nat.ltb_lt _ _)) by lia.
  - fold (tag f (seq (S s) n)). rewrite IH by lia. now rewrite Nat.add_succ_r.
Qed.

Lemma succ_bwd f tail idx : forall n, idx < n ->
  succ_in (seg Bwd f n ++ tail) (f, idx) = if Nat.leb 1 idx then Some (f, idx - 1) else hd_error tail.
Proof.
  induction n as [|n IH]; intros H; [lia|].
  rewrite seg_bwd_S. cbn [app succ_in]. rewrite pos_eqb_tag.
  destruct (Nat.eqb_spec n idx) as [->|Hn]; [apply (hd_seg Bwd)|apply IH; lia].
Qed.

Lemma succ_seg d f n idx tail : idx < n ->
  succ_in (seg d f n ++ tail) (f, idx) =
  match d with
  | Fwd => if Nat.ltb (S idx) n then Some (f, S idx) else hd_error tail
  | Bwd => if Nat.leb 1 idx then Some (f, idx - 1) else hd_error tail
  end.
Proof.
  intros H. destruct d.
  - apply (succ_up f tail idx n 0). lia.
  - now apply succ_bwd.
Qed.

Lemma after_field_split f items k rest : after_field f items = Some (k, rest) ->
  exists pre, items = pre ++ CI f k :: rest /\ (forall g kg, In (CI g kg) pre -> g <> f).
Proof.
  revert k rest. induction items as [|[g kg] r IH]; intros k rest H; [discriminate|]. cbn in H.
  destruct (String.eqb_spec f g) as [->|Hn].
  - injection H as <- <-. exists []. split; [reflexivity|]. intros ? ? [].
  - destruct (IH k rest H) as (pre & -> & Hp). exists (CI g kg :: pre). split; [reflexivity|].
    intros g' k' [E|Hin]; [injection E as <- <-; congruence|now apply (Hp g' k')].
Qed.

Lemma flat_app d o a b : flat d o (a ++ b) = flat d o a ++ flat d o b.
Proof. unfold flat. apply flat_map_app. Qed.

Lemma flat_no_field d o items f i : (forall g kg, In (CI g kg) items -> g <> f) ->
  forall y, In y (flat d o items) -> pos_eqb y (f, i) = false.
Proof.
  intros H y Hy. unfold flat in Hy. apply in_flat_map in Hy. destruct Hy as ([g kg] & Hin & Hy).
  apply seg_fields in Hy. unfold pos_eqb. cbn. destruct (String.eqb_spec (fst y) f) as [E|]; [|reflexivity].
  exfalso. apply (H g kg Hin). congruence.
Qed.

Lemma succ_in_skip l1 l2 x : (forall y, In y l1 -> pos_eqb y x = false) -> succ_in (l1 ++ l2) x = succ_in l2 x.
Proof.
  induction l1 as [|a l1 IH]; intros H; [reflexivity|]. cbn [app succ_in].
  rewrite (H a (or_introl eq_refl)). apply IH. intros y Hy. apply H. now right.
Qed.

Lemma wf_occ_dir d items o : wf_occ items o -> wf_occ (items_dir d items) o.
Proof. intros H. destruct d; [exact H|]. intros f k Hin. apply H. now apply in_rev. Qed.

Theorem compat_sound d items f p o : wf_occ items o -> compat d items f p = true ->
  match f with
  | None => forall idx, exec d p o idx = hd_error (children_dir d items o)
  | Some f => forall idx, idx < o f -> exec d p o idx = succ_in (children_dir d items o) (f, idx)
  end.
Proof.
  intros Hw Hc. rewrite children_dir_flat. apply (wf_occ_dir d) in Hw. unfold compat in Hc.
  destruct f as [f|].
  - intros idx Hi. destruct (after_field f (items_dir d items)) as [[k rest]|] eqn:Ea; [|discriminate].
    destruct (after_field_split _ _ _ _ Ea) as (pre & Ei & Hpre). rewrite Ei in *. rewrite flat_app.
    rewrite succ_in_skip by (apply flat_no_field; exact Hpre).
    cbn [flat flat_map]. fold (flat d o rest).
    assert (Hwr : wf_occ rest o) by (intros g kg Hin; apply Hw; apply in_or_app; right; now right).
    pose proof (Hw f k ltac:(apply in_or_app; right; now left)) as Hk.
    rewrite succ_seg by assumption.
    destruct k.
    (* Req, Opt: the field holds one child, idx = 0, and what follows it is the head of the rest *)
    1, 2: assert (o f = 1 /\ idx = 0) as [Ho ->] by lia.
    1, 2: rewrite Ho, (compat_rest_sound d p rest o 0 Hc Hwr); now destruct d.
    destruct p as [|[] p']; try discriminate.
    apply andb_prop in Hc. destruct Hc as [E Hc]. apply String.eqb_eq in E. subst f0.
    cbn [exec]. rewrite (compat_rest_sound d p' rest o idx Hc Hwr). now destruct d.
  - intros idx. now apply compat_rest_sound.
Qed.
