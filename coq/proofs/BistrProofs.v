(* C06: c2b counts the bytes before a character and is strictly increasing; b2c inverts it and maps a byte inside a
   character to that character. *)
From Coq Require Import List NArith Arith Lia.
From PF Require Import kernel.PyBase kernel.Text models.Bistr.

Lemma u8w_pos c : 1 <= u8w c <= 4.
Proof. unfold u8w. repeat destruct (_ <? _)%N; lia. Qed.

Lemma c2b_0 l : c2b l 0 = 0.
Proof. reflexivity. Qed.

Lemma c2b_S c r i : c2b (c :: r) (S i) = u8w c + c2b r i.
Proof. reflexivity. Qed.

Lemma c2b_len l : c2b l (length l) = blen_nat l.
Proof. unfold c2b. now rewrite firstn_all. Qed.

Theorem c2b_strict_mono l : forall i i', i < i' <= length l -> c2b l i < c2b l i'.
Proof.
  induction l as [|c r IH]; intros i i' H; [cbn in H; lia|].
  destruct i' as [|i']; [lia|]. destruct i as [|i].
  - rewrite c2b_0, c2b_S. pose proof (u8w_pos c). lia.
  - rewrite !c2b_S. cbn in H. specialize (IH i i' ltac:(lia)). lia.
Qed.

Theorem b2c_c2b l : forall i, i <= length l -> b2c l (c2b l i) = i.
Proof.
  induction l as [|c r IH]; intros i H.
  - cbn in H. assert (i = 0) by lia. subst. reflexivity.
  - destruct i as [|i]; cbn [b2c].
    + rewrite c2b_0. pose proof (u8w_pos c). destruct (Nat.ltb_spec 0 (u8w c)); [reflexivity|lia].
    + rewrite c2b_S. destruct (Nat.ltb_spec (u8w c + c2b r i) (u8w c)); [lia|].
      replace (u8w c + c2b r i - u8w c) with (c2b r i) by lia. rewrite IH by (cbn in H; lia). reflexivity.
Qed.

Lemma b2c_le_len l : forall j, b2c l j <= length l.
Proof.
  induction l as [|c r IH]; intros j; cbn [b2c length]; [lia|].
  destruct (Nat.ltb _ _); [lia|]. specialize (IH (j - u8w c)). lia.
Qed.

Theorem c2b_b2c_bracket l : forall j, j < blen_nat l -> c2b l (b2c l j) <= j < c2b l (S (b2c l j)).
Proof.
  induction l as [|c r IH]; intros j H; [cbn in H; lia|]. cbn [b2c]. cbn [blen_nat] in H.
  destruct (Nat.ltb_spec j (u8w c)).
  - rewrite c2b_S, !c2b_0. lia.
  - rewrite !c2b_S. specialize (IH (j - u8w c) ltac:(lia)). lia.
Qed.

(* the fast path: on an all-ASCII line both maps are the identity *)
Lemma c2b_ascii l : is_ascii l = true -> forall i, i <= length l -> c2b l i = i.
Proof.
  induction l as [|c r IH]; intros Ha [|i] H; try reflexivity; [cbn in H; lia|].
  cbn [is_ascii forallb] in Ha. apply andb_prop in Ha as [Hc Hr].
  rewrite c2b_S, (IH Hr) by (cbn in H; lia).
  unfold u8w. now rewrite Hc.
Qed.

Theorem ascii_identity l : is_ascii l = true -> (forall i, i <= length l -> c2b l i = i) /\ (forall j, j <= length l -> b2c l j = j).
Proof.
  intros Ha. split; [now apply c2b_ascii|].
  intros j H. rewrite <- (c2b_ascii l Ha j H) at 1. now apply b2c_c2b.
Qed.
