(* If no may-raise atom follows a live mutation then, whatever raises, a run that raises leaves the live state exactly as
   it was; and a run that does not raise performs all its mutations. Conversely a path with a may-raise atom behind a
   mutation has a failure pattern that leaves a changed state behind, so `ordered` is exact. *)
From Coq Require Import List Arith.
From PF Require Import models.Atomic.
Import ListNotations.

Lemma run_ordered_mutated p : forall fails st, ordered_from true p = true -> snd (run p fails st) = false.
Proof.
  induction p as [|a p IH]; intros fails st H; [reflexivity|].
  destruct a; simpl in *; try (apply IH; exact H).
  discriminate.
Qed.

Theorem ordered_atomic p : ordered p = true ->
  forall fails st, snd (run p fails st) = true -> fst (run p fails st) = st.
Proof.
  unfold ordered. induction p as [|a p IH]; intros H fails st Hr; [reflexivity|].
  destruct a; simpl in *.
  - apply IH; assumption.
  - apply IH; assumption.
  - rewrite run_ordered_mutated in Hr by exact H. discriminate.
  - destruct fails as [|[|] f]; simpl in *; try reflexivity; apply IH; assumption.
Qed.

Definition count_mut (p : list atom) : nat := length (filter (fun a => match a with AMut => true | _ => false end) p).

Theorem completed_run_does_everything p : forall fails st,
  snd (run p fails st) = false -> fst (run p fails st) = st + count_mut p.
Proof.
  unfold count_mut. induction p as [|a p IH]; intros fails st H; [symmetry; apply Nat.add_0_r|].
  destruct a; cbn [run filter] in *.
  - apply IH; exact H.
  - apply IH; exact H.
  - rewrite IH by exact H. apply Nat.add_succ_comm.
  - destruct fails as [|[|] f]; cbn [fst snd] in *; try discriminate; apply IH; exact H.
Qed.

(* the failure pattern lets every may-raise atom pass until one stands behind a mutation, and fails that one *)
Lemma unordered_raises_late p : forall m st, ordered_from m p = false ->
  exists fails, snd (run p fails st) = true /\ (if m then st else S st) <= fst (run p fails st).
Proof.
  induction p as [|a p IH]; intros m st H; [discriminate|].
  destruct a; cbn [ordered_from] in H.
  - exact (IH m st H).
  - exact (IH m st H).
  - destruct (IH true (S st) H) as (f & Hr & Hs). exists f. cbn [run]. split; [exact Hr|]. destruct m; [apply Nat.lt_le_incl|]; exact Hs.
  - destruct m; cbn [negb andb] in H.
    + exists [true]. split; [reflexivity|apply Nat.le_refl].
    + destruct (IH false st H) as (f & Hf). exists (false :: f). exact Hf.
Qed.

Theorem unordered_not_atomic p : ordered p = false -> exists fails st, snd (run p fails st) = true /\ fst (run p fails st) <> st.
Proof.
  intros H. destruct (unordered_raises_late p false 0 H) as (f & Hr & Hs).
  exists f, 0. split; [exact Hr|apply Nat.neq_sym, Nat.lt_neq, Hs].
Qed.
