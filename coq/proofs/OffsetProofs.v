(* K2 theorems. (1) the TRANSLATED per-node rule equals the intended position map for every well-formed span: the
   code, read as "move the end, then the start" (offset_node_unfold), moves each as move_point does;
   (2) under the syntax-order assumption (the WARNING in _offset) the early exits never skip a node that the rule
   would have changed: the walk is the map of the rule over all (non-excluded) nodes;
   (3) once the walks are maps, the two-phase offset of put_src(action='offset') and the three _offset calls of
   single-expression replacement are each one induction over the tree: both compute mode_map. *)
From Coq Require Import ZArith List Bool Lia.
From PF Require Import kernel.OffsetBase gen.OffsetNode models.Offset.
Import ListNotations.
Local Open Scope Z_scope.

Ltac pos_side := unfold pos_le, pos_lt in *; lia.

Lemma pos_le_refl l c : pos_le l c l c = true.
Proof. pos_side. Qed.

Lemma pos_le_lt_trans l1 c1 l2 c2 l3 c3 :
  pos_le l1 c1 l2 c2 = true -> pos_lt l2 c2 l3 c3 = true -> pos_lt l1 c1 l3 c3 = true.
Proof. pos_side. Qed.

Lemma pos_lt_le_trans l1 c1 l2 c2 l3 c3 :
  pos_lt l1 c1 l2 c2 = true -> pos_le l2 c2 l3 c3 = true -> pos_lt l1 c1 l3 c3 = true.
Proof. pos_side. Qed.

Section Point.
  Variables lno colo dln dcol : Z.
  Notation mp := (move_point lno colo dln dcol).

  Lemma move_point_lt a l c : pos_lt l c lno colo = true -> mp a l c = (l, c).
  Proof.
    unfold pos_lt, move_point. intros H.
    destruct (l >? lno) eqn:E1, (l =? lno) eqn:E2, ((c >? colo) || (c =? colo) && a) eqn:E3; reflexivity || lia.
  Qed.

  Lemma move_point_gt a l c : pos_lt lno colo l c = true -> mp a l c = (l + dln, if l =? lno then c + dcol else c).
  Proof.
    unfold pos_lt, move_point. intros H.
    destruct (l >? lno) eqn:E1, (l =? lno) eqn:E2, ((c >? colo) || (c =? colo) && a) eqn:E3; reflexivity || lia.
  Qed.

  Lemma move_point_le_false l c : pos_le l c lno colo = true -> mp false l c = (l, c).
  Proof.
    unfold pos_le, move_point. intros H.
    destruct (l >? lno) eqn:E1, (l =? lno) eqn:E2, ((c >? colo) || (c =? colo) && false) eqn:E3; reflexivity || lia.
  Qed.

  Lemma move_point_ge_true l c : pos_le lno colo l c = true -> mp true l c = (l + dln, if l =? lno then c + dcol else c).
  Proof.
    unfold pos_le, move_point. intros H.
    destruct (l >? lno) eqn:E1, (l =? lno) eqn:E2, ((c >? colo) || (c =? colo) && true) eqn:E3; reflexivity || lia.
  Qed.
End Point.

Lemma move_point_zero lno colo a l c : move_point lno colo 0 0 a l c = (l, c).
Proof.
  unfold move_point. rewrite !Z.add_0_r.
  destruct (l >? lno), (l =? lno); try reflexivity. now destruct (_ || _).
Qed.

Definition span (s e : Z * Z) : npos := (fst s, snd s, fst e, snd e).

Lemma offset_spec_ends lno colo dln dcol tail head l c el ec :
  offset_spec lno colo dln dcol tail head (l, c, el, ec)
  = let zl := (l =? el) && (c =? ec) in
    let fwd := is_fwd dln dcol in
    span (move_point lno colo dln dcol (start_moves_at tail head fwd zl) l c)
         (move_point lno colo dln dcol (end_moves_at tail head fwd zl) el ec).
Proof. unfold offset_spec. now destruct move_point, move_point. Qed.

(* on a non-empty span the point itself belongs to the start iff head, to the end iff tail *)
Lemma moves_at_nonempty tail head fwd :
  start_moves_at tail head fwd false = tri_eqb head TTrue /\ end_moves_at tail head fwd false = tri_eqb tail TTrue.
Proof. destruct tail, head, fwd; split; reflexivity. Qed.

Lemma offset_spec_nonempty lno colo dln dcol tail head l c el ec : pos_lt l c el ec = true ->
  offset_spec lno colo dln dcol tail head (l, c, el, ec)
  = span (move_point lno colo dln dcol (tri_eqb head TTrue) l c) (move_point lno colo dln dcol (tri_eqb tail TTrue) el ec).
Proof.
  intros H. rewrite offset_spec_ends. cbv zeta.
  replace ((l =? el) && (c =? ec)) with false by pos_side.
  now destruct (moves_at_nonempty tail head (is_fwd dln dcol)) as [-> ->].
Qed.

Lemma spec_after lno colo dln dcol tail head l c el ec :
  pos_le l c el ec = true -> pos_lt lno colo l c = true ->
  offset_spec lno colo dln dcol tail head (l, c, el, ec)
  = (l + dln, (if l =? lno then c + dcol else c), el + dln, (if el =? lno then ec + dcol else ec)).
Proof.
  intros Hw Ha. rewrite offset_spec_ends. cbv zeta.
  rewrite !move_point_gt; [reflexivity|exact (pos_lt_le_trans _ _ _ _ _ _ Ha Hw)|assumption].
Qed.

(* offset mode, first phase (tail=True, head=False): a container of the point grows or shrinks by exactly the change *)
Lemma spec_container lno colo dln dcol l c el ec :
  pos_le l c lno colo = true -> pos_le lno colo el ec = true -> pos_lt l c el ec = true ->
  offset_spec lno colo dln dcol TTrue TFalse (l, c, el, ec)
  = (l, c, el + dln, (if el =? lno then ec + dcol else ec)).
Proof.
  intros H1 H2 H3. rewrite offset_spec_nonempty by assumption. cbn [tri_eqb].
  now rewrite move_point_le_false, move_point_ge_true.
Qed.

(* offset mode, second phase (tail=False, head=True): the point belongs to the container, never to a child - one that
   ends there stays, one that starts there moves *)
Lemma spec_child_before lno colo dln dcol l c el ec :
  pos_lt l c el ec = true -> pos_le el ec lno colo = true ->
  offset_spec lno colo dln dcol TFalse TTrue (l, c, el, ec) = (l, c, el, ec).
Proof.
  intros H1 H2. rewrite offset_spec_nonempty by assumption. cbn [tri_eqb].
  rewrite move_point_le_false by assumption.
  now rewrite move_point_lt by exact (pos_lt_le_trans _ _ _ _ _ _ H1 H2).
Qed.

Lemma spec_child_after lno colo dln dcol l c el ec :
  pos_lt l c el ec = true -> pos_le lno colo l c = true ->
  offset_spec lno colo dln dcol TFalse TTrue (l, c, el, ec)
  = (l + dln, (if l =? lno then c + dcol else c), el + dln, (if el =? lno then ec + dcol else ec)).
Proof.
  intros H1 H2. rewrite offset_spec_nonempty by assumption. cbn [tri_eqb].
  rewrite move_point_ge_true by assumption.
  now rewrite move_point_gt by exact (pos_le_lt_trans _ _ _ _ _ _ H2 H1).
Qed.

Lemma spec_zero lno colo tail head q : offset_spec lno colo 0 0 tail head q = q.
Proof. destruct q as [[[l c] el] ec]. rewrite offset_spec_ends. cbv zeta. now rewrite !move_point_zero. Qed.

Lemma Z_cmp_cases a b :
  (a <? b = true /\ a =? b = false /\ a >? b = false) \/
  (a <? b = false /\ a =? b = true /\ a >? b = false) \/
  (a <? b = false /\ a =? b = false /\ a >? b = true).
Proof. lia. Qed.

(* cmp a b: the cases a < b, a = b, a > b, with a <? b, a =? b and a >? b replaced by their values in the goal *)
Ltac cmp a b :=
  let E1 := fresh in let E2 := fresh in let E3 := fresh in
  destruct (Z_cmp_cases a b) as [(E1 & E2 & E3)|[(E1 & E2 & E3)|(E1 & E2 & E3)]];
  rewrite ?E1, ?E2, ?E3; clear E1 E2 E3; cbn [andb orb negb]; try reflexivity.

(* The block of the translated rule that moves the start: it comes three times, once for each way the end (X, Y) can
   have come out.  A span on later lines whose lines do not move (dln = 0; first decorator line, if any, also below)
   is not entered (Continue). *)
Lemma start_block lno colo dln dcol (sa : bool) deco l c (X Y : Z) :
  (if l >? lno
   then if (dln =? 0) && match deco with None => true | Some d => d >? lno end
        then ((l, c, X, Y), Continue) else ((l + dln, c, X, Y), Fall)
   else if (l =? lno) && ((c >? colo) || (c =? colo) && sa)
        then ((l + dln, c + dcol, X, Y), Fall) else ((l, c, X, Y), Fall))
  = if (l >? lno) && (dln =? 0) && match deco with None => true | Some d => d >? lno end
    then ((l, c, X, Y), Continue)
    else (span (move_point lno colo dln dcol sa l c) (X, Y), Fall).
Proof.
  unfold move_point, span. destruct (l >? lno); cbn [andb fst snd].
  - now destruct (_ && _).
  - now destruct (l =? lno), (_ || _).
Qed.

(* The rule moves the end first, then the start, each as move_point does, with the flags of the docstring table.
   A span that ends before the point stops the walk of its sibling list (Break). *)
Lemma offset_node_unfold lno colo dln dcol tail head l c el ec deco :
  offset_node lno colo dln dcol tail head (l, c, el, ec) deco
  = let zl := (l =? el) && (c =? ec) in
    let fwd := is_fwd dln dcol in
    if pos_lt el ec lno colo then ((l, c, el, ec), Break)
    else
      let e' := move_point lno colo dln dcol (end_moves_at tail head fwd zl) el ec in
      if (l >? lno) && (dln =? 0) && match deco with None => true | Some d => d >? lno end
      then (span (l, c) e', Continue)
      else (span (move_point lno colo dln dcol (start_moves_at tail head fwd zl) l c) e', Fall).
Proof.
  unfold offset_node. rewrite !negb_involutive. fold (is_fwd dln dcol).
  set (sa := start_moves_at _ _ _ _). set (ea := end_moves_at _ _ _ _).
  (* the two flag expressions of the code are those of the docstring table, written in another order *)
  match goal with |- context [(c =? colo) && ?S] =>
    replace S with sa
      by (subst sa; unfold start_moves_at; destruct tail, head, (l =? el), (c =? ec), (is_fwd dln dcol); reflexivity)
  end.
  rewrite <- !(orb_assoc (ec >? colo)).
  match goal with |- context [(ec >? colo) || ?E] =>
    replace E with ea
      by (subst ea; unfold end_moves_at; destruct tail, head, (l =? el), (c =? ec), (is_fwd dln dcol); reflexivity)
  end.
  clearbody sa ea. rewrite !start_block.
  (* what is left is where the end lies *)
  set (s' := move_point _ _ _ _ sa l c). unfold move_point, pos_lt.
  cmp el lno. cmp ec colo; now destruct ea.
Qed.

Theorem offset_node_spec lno colo dln dcol tail head l c el ec deco :
  pos_le l c el ec = true ->
  fst (offset_node lno colo dln dcol tail head (l, c, el, ec) deco) = offset_spec lno colo dln dcol tail head (l, c, el, ec).
Proof.
  intros Hw. rewrite offset_node_unfold, offset_spec_ends. cbv zeta.
  destruct (pos_lt el ec lno colo) eqn:Hb.
  - (* Break: both ends lie before the point *)
    rewrite !move_point_lt; [reflexivity|assumption|exact (pos_le_lt_trans _ _ _ _ _ _ Hw Hb)].
  - destruct (_ && _ && _) eqn:Hc; [|reflexivity].
    (* Continue: the start is on a later line and dln = 0 *)
    unfold move_point at 2. replace (l >? lno) with true by lia.
    now replace (l + dln) with l by lia.
Qed.

Lemma stree_ind' (P : stree -> Prop)
  (H : forall i p d kids, (forall k, In (Some k) kids -> P k) -> P (SNode i p d kids)) : forall t, P t.
Proof.
  fix IH 1. intros [i p d kids]. apply H.
  induction kids as [|x r IHr]; [intros k []|].
  intros k [E|Hin]; [|exact (IHr k Hin)].
  destruct x as [k0|]; [injection E as <-; apply IH|discriminate E].
Qed.

Lemma map_kids_ext (f g : stree -> stree) kids : (forall k, In (Some k) kids -> f k = g k) ->
  map (option_map f) kids = map (option_map g) kids.
Proof. intros H. apply map_ext_in. intros [k|] Hin; [|reflexivity]. cbn. f_equal. now apply H. Qed.

Lemma map_kids_id (f : stree -> stree) kids : (forall k, In (Some k) kids -> f k = k) -> map (option_map f) kids = kids.
Proof.
  intros H. rewrite <- (map_id kids) at 2. apply map_ext_in.
  intros [k|] Hin; [|reflexivity]. cbn. f_equal. now apply H.
Qed.

(* used by rewrite, hence spelled with the match that map_tree, mode_map and apply_at unfold to: option_map (as in the
   two lemmas above, which are used by apply) is convertible to it, but a rewrite would not find it *)
Lemma map_kids_comp (f g : stree -> stree) kids :
  map (fun k => match k with Some k => Some (f k) | None => None end)
    (map (fun k => match k with Some k => Some (g k) | None => None end) kids)
  = map (fun k => match k with Some k => Some (f (g k)) | None => None end) kids.
Proof. rewrite map_map. apply map_ext. now intros [k|]. Qed.

Lemma in_kpos k kids q : In (Some k) kids -> In q (all_pos k) -> In q (flat_map kpos kids).
Proof. intros Hk Hq. apply in_flat_map. now exists (Some k). Qed.

Lemma all_pos_kid i p d kids k q : In (Some k) kids -> In q (all_pos k) -> In q (all_pos (SNode i p d kids)).
Proof. intros Hk Hq. cbn [all_pos]. apply in_or_app. right. exact (in_kpos k kids q Hk Hq). Qed.

Lemma all_pos_root i q d kids : In q (all_pos (SNode i (Some q) d kids)).
Proof. now left. Qed.

Lemma map_pos_ext_in f g t : (forall q, In q (all_pos t) -> f q = g q) -> map_pos f t = map_pos g t.
Proof.
  induction t as [i p d kids IH] using stree_ind'. intros H. cbn [map_pos]. f_equal.
  - destruct p as [q|]; [|reflexivity]. cbn. f_equal. apply H, all_pos_root.
  - apply map_kids_ext. intros k Hk. apply IH; [assumption|].
    intros q Hq. exact (H q (all_pos_kid _ _ _ _ k q Hk Hq)).
Qed.

Lemma ordered_wf t : Ordered t -> forall q, In q (all_pos t) -> wf_pos q.
Proof.
  induction t as [i p d kids IH] using stree_ind'. intros HO q Hin. inversion HO as [i' p' d' kids' Hp Hs Hk]; subst.
  cbn [all_pos] in Hin. apply in_app_or in Hin. destruct Hin as [Hin|Hin].
  - destruct p as [[[[l c] el] ec]|]; [|contradiction]. destruct Hin as [<-|[]].
    apply (Hp l c el ec eq_refl).
  - apply in_flat_map in Hin. destruct Hin as [[k|] [Hk1 Hk2]]; [|contradiction].
    apply (IH k Hk1 (Hk k Hk1) q Hk2).
Qed.

Lemma Ordered_leaf i q d : wf_pos q -> Ordered (SNode i (Some q) d []).
Proof.
  intros Hw. constructor.
  - intros l c el ec E. injection E as ->. split; [exact Hw|intros q []].
  - intros A k B pk E. destruct A; discriminate E.
  - intros k [].
Qed.

Section WalkProofs.
  Variables (lno colo dln dcol : Z) (tail head : tri).
  Variable excl : option nat.
  Variable offset_excluded : bool.

  Notation spec := (offset_spec lno colo dln dcol tail head).
  Notation mapt := (map_tree lno colo dln dcol tail head excl offset_excluded).
  Notation walk := (walk_tree lno colo dln dcol tail head excl offset_excluded).

  Definition before (q : npos) : Prop := let '(_, _, el, ec) := q in pos_lt el ec lno colo = true.

  Lemma spec_id_before q : wf_pos q -> before q -> spec q = q.
  Proof.
    destruct q as [[[l c] el] ec]. intros Hw Hb. rewrite offset_spec_ends. cbv zeta.
    rewrite !move_point_lt; [reflexivity|assumption|exact (pos_le_lt_trans _ _ _ _ _ _ Hw Hb)].
  Qed.

  Lemma spec_id_below l c el ec : pos_le l c el ec = true -> l > lno -> dln = 0 -> spec (l, c, el, ec) = (l, c, el, ec).
  Proof.
    intros Hw Hb Hd. rewrite spec_after by (assumption || pos_side).
    replace (l =? lno) with false by lia.
    replace (el =? lno) with false by pos_side.
    rewrite Hd. now rewrite !Z.add_0_r.
  Qed.

  Lemma end_le_before q pk : end_le q pk -> before pk -> before q.
  Proof. destruct q as [[[l c] el] ec], pk as [[[l2 c2] el2] ec2]. apply pos_le_lt_trans. Qed.

  Lemma offset_node_ctl l c el ec deco :
    match snd (offset_node lno colo dln dcol tail head (l, c, el, ec) deco) with
    | Break => before (l, c, el, ec)
    | Continue => dln = 0 /\ lowline deco l > lno
    | Fall => True
    end.
  Proof.
    rewrite offset_node_unfold. cbv zeta. unfold before, lowline.
    destruct (pos_lt el ec lno colo); [reflexivity|].
    destruct (_ && _ && _) eqn:Hc; [|exact I]. cbn [snd]. destruct deco; lia.
  Qed.

  Lemma mapt_node i p d kids :
    mapt (SNode i p d kids)
    = let is_excl := match excl with Some e => Nat.eqb e i | None => false end in
      if is_excl && negb offset_excluded then SNode i p d kids
      else if is_excl then SNode i (option_map spec p) d kids
      else SNode i (option_map spec p) d (map (fun k => match k with Some k => Some (mapt k) | None => None end) kids).
  Proof. reflexivity. Qed.

  Lemma mapt_inert t : (forall q, In q (all_pos t) -> spec q = q) -> mapt t = t.
  Proof.
    induction t as [i p d kids IH] using stree_ind'. intros Hq. cbn [map_tree].
    destruct (_ && negb offset_excluded); [reflexivity|].
    assert (Hp : option_map spec p = p).
    { destruct p as [q|]; [|reflexivity]. cbn. f_equal. apply Hq, all_pos_root. }
    rewrite Hp. destruct (match excl with Some e => Nat.eqb e i | None => false end); [reflexivity|].
    f_equal. apply map_kids_id. intros k Hk. apply IH; [assumption|].
    intros q Hq'. exact (Hq q (all_pos_kid _ _ _ _ k q Hk Hq')).
  Qed.

  Lemma mapt_ends_before t pk : Ordered t -> before pk -> (forall q, In q (all_pos t) -> end_le q pk) -> mapt t = t.
  Proof.
    intros HO Hb H. apply mapt_inert. intros q Hq.
    apply spec_id_before; [exact (ordered_wf t HO q Hq)|exact (end_le_before q pk (H q Hq) Hb)].
  Qed.

  (* One node under `Ordered`: the rule gives the spec's span; after Break nothing in the sub-tree would have moved,
     after Continue nothing below the node. *)
  Lemma node_step_ok i p d kids : Ordered (SNode i p d kids) ->
    let '(p', ct) := node_step lno colo dln dcol tail head (SNode i p d kids) in
    p' = option_map spec p /\
    match ct with
    | Break => mapt (SNode i p d kids) = SNode i p d kids /\ exists pk, p = Some pk /\ before pk
    | Continue => forall k, In (Some k) kids -> mapt k = k
    | Fall => True
    end.
  Proof.
    intros HO. inversion HO as [i' p0 d' kids' Hp _ Hk]; subst. unfold node_step. cbn [s_pos].
    destruct p as [[[[l c] el] ec]|]; [|now split].
    destruct (Hp l c el ec eq_refl) as [Hw Hdesc].
    pose proof (offset_node_spec lno colo dln dcol tail head l c el ec d Hw) as Hspec.
    pose proof (offset_node_ctl l c el ec d) as Hct.
    destruct (offset_node _ _ _ _ _ _ _ _) as [p' ct]. cbn [fst snd] in Hspec, Hct. subst p'.
    split; [reflexivity|]. destruct ct; [| |exact I].
    - (* every span of the sub-tree ends where the root ends, or before *)
      split; [|now exists (l, c, el, ec)]. apply (mapt_ends_before _ _ HO Hct).
      intros q [<-|Hq]; [apply pos_le_refl|exact (proj1 (Hdesc q Hq))].
    - (* dln = 0 and every descendant is on later lines *)
      destruct Hct as [Hd0 Hlow]. intros k Hin. apply mapt_inert. intros [[[ql qc] qel] qec] Hq.
      apply spec_id_below; [exact (ordered_wf k (Hk k Hin) _ Hq)| |exact Hd0].
      destruct (Hdesc _ (in_kpos k kids _ Hin Hq)) as [_ Hql]. lia.
  Qed.

  (* the inner loop of walk_tree (and walk_kids): a sibling list is walked from its LAST element *)
  Fixpoint walk_list (l : list (option stree)) : list (option stree) * bool :=
    match l with
    | [] => ([], false)
    | x :: r =>
        let '(r', stopped) := walk_list r in
        if stopped then (x :: r', true)
        else match x with
             | None => (None :: r', false)
             | Some k => let '(k', b) := walk k in (Some k' :: r', b)
             end
    end.

  Definition walk_ok (t : stree) : Prop :=
    fst (walk t) = mapt t /\ (snd (walk t) = true -> exists pk, s_pos t = Some pk /\ before pk).

  (* The loop over a sibling list leaves a front part A alone and walks the rest B; if it broke off, it did so at the
     first element of B, and if not, it walked the whole list. *)
  Lemma walk_list_split l : exists A B, l = A ++ B
    /\ fst (walk_list l) = A ++ map (fun k => match k with Some k => Some (fst (walk k)) | None => None end) B
    /\ if snd (walk_list l) then exists k B', B = Some k :: B' /\ snd (walk k) = true else A = [].
  Proof.
    induction l as [|x r (A & B & E & I1 & I2)]; [now exists [], []|].
    cbn [walk_list]. destruct (walk_list r) as [r' stopped]. cbn [fst snd] in I1, I2. destruct stopped.
    - exists (x :: A), B. cbn [fst snd app]. now rewrite E, I1.
    - subst A. cbn [app] in E, I1. subst r r'. destruct x as [k|]; [|now exists [], (None :: B)].
      exists [], (Some k :: B). destruct (walk k) as [k' b] eqn:Ek. cbn [fst snd app map]. rewrite Ek.
      repeat split. destruct b; [|reflexivity]. exists k, B. now rewrite Ek.
  Qed.

  (* the front part is rightly left alone: all its spans end no later than the sibling at which the loop broke off
     (SibOrd), and that one ends before the point *)
  Lemma walk_list_map l : (forall k, In (Some k) l -> Ordered k) -> (forall k, In (Some k) l -> walk_ok k) ->
    SibOrd l -> fst (walk_list l) = map (fun k => match k with Some k => Some (mapt k) | None => None end) l.
  Proof.
    intros HO Hw HS. destruct (walk_list_split l) as (A & B & -> & -> & Hb). rewrite map_app. f_equal.
    - destruct (snd (walk_list (A ++ B))); [|now subst A].
      destruct Hb as (k & B' & -> & Hb). symmetry. apply map_kids_id. intros x Hx.
      destruct (Hw k) as [_ Hk]; [apply in_or_app; right; now left|].
      destruct (Hk Hb) as (pk & Epk & Hbef).
      apply (mapt_ends_before x pk); [apply HO, in_or_app; now left|assumption|].
      intros q Hq. exact (HS A k B' pk eq_refl Epk q (in_kpos x A q Hx Hq)).
    - apply map_kids_ext. intros k Hk. exact (proj1 (Hw k (in_or_app A B _ (or_intror Hk)))).
  Qed.

  (* walk_ok is the invariant of the induction; what callers want is its first part, walk_map below *)
  Theorem walk_is_map t : Ordered t -> walk_ok t.
  Proof.
    induction t as [i p d kids IH] using stree_ind'. intros HO.
    pose proof (node_step_ok i p d kids HO) as HN.
    inversion HO as [i' p0 d' kids' _ Hs Hk]; subst.
    pose proof (walk_list_map kids Hk (fun k h => IH k h (Hk k h)) Hs) as WL.
    unfold walk_ok. cbn [walk_tree s_pos]. fold walk_list.
    pose proof (mapt_node i p d kids) as MU. cbv zeta in MU.
    destruct (_ && negb offset_excluded); [rewrite MU; now split|].
    destruct (node_step _ _ _ _ _ _ _) as [p' ct]. destruct HN as [-> HN].
    destruct ct.
    - destruct HN as [-> HN]. now split.
    - rewrite MU. destruct (match excl with Some e => Nat.eqb e i | None => false end); [now split|].
      split; [|discriminate]. cbn [fst]. f_equal. symmetry. now apply map_kids_id.
    - rewrite MU. destruct (match excl with Some e => Nat.eqb e i | None => false end); [now split|].
      split; [|discriminate]. cbn [fst]. now rewrite WL.
  Qed.

  Corollary walk_map t : Ordered t -> fst (walk t) = mapt t.
  Proof. intros HO. exact (proj1 (walk_is_map t HO)). Qed.
End WalkProofs.

Lemma walk_kids_is_map lno colo dln dcol tail head excl oe kids :
  (forall k, In (Some k) kids -> Ordered k) -> SibOrd kids ->
  walk_kids lno colo dln dcol tail head excl oe kids
  = map (fun k => match k with Some k => Some (map_tree lno colo dln dcol tail head excl oe k) | None => None end) kids.
Proof.
  intros Hk Hs.
  exact (walk_list_map lno colo dln dcol tail head excl oe kids Hk
           (fun k h => walk_is_map lno colo dln dcol tail head excl oe k (Hk k h)) Hs).
Qed.

(* nothing moves: the early return of _offset is the map as well *)
Lemma map_tree_zero lno colo tail head excl oe t : map_tree lno colo 0 0 tail head excl oe t = t.
Proof. apply mapt_inert. intros q _. apply spec_zero. Qed.

(* _offset(..., self_=True) *)
Lemma offset_top_self lno colo dln dcol tail head excl oe t : Ordered t ->
  offset_top lno colo dln dcol tail head excl oe true t = map_tree lno colo dln dcol tail head excl oe t.
Proof.
  intros HO. unfold offset_top. destruct ((dln =? 0) && (dcol =? 0)) eqn:Ez.
  - assert (dln = 0 /\ dcol = 0) as [-> ->] by lia. symmetry. apply map_tree_zero.
  - now apply walk_map.
Qed.

(* _offset(..., self_=False): only the children are walked *)
Lemma offset_top_kids lno colo dln dcol tail head excl oe i p d kids :
  (forall k, In (Some k) kids -> Ordered k) -> SibOrd kids ->
  offset_top lno colo dln dcol tail head excl oe false (SNode i p d kids)
  = if match excl with Some e => Nat.eqb e i | None => false end then SNode i p d kids
    else SNode i p d (map (fun k => match k with Some k => Some (map_tree lno colo dln dcol tail head excl oe k) | None => None end) kids).
Proof.
  intros Hk Hs. unfold offset_top. destruct ((dln =? 0) && (dcol =? 0)) eqn:Ez.
  - assert (dln = 0 /\ dcol = 0) as [-> ->] by lia.
    destruct (match excl with Some e => Nat.eqb e i | None => false end); [reflexivity|].
    f_equal. symmetry. apply map_kids_id. intros k _. apply map_tree_zero.
  - now rewrite walk_kids_is_map.
Qed.

Lemma map_tree_none lno colo dln dcol tail head oe t :
  map_tree lno colo dln dcol tail head None oe t = map_pos (offset_spec lno colo dln dcol tail head) t.
Proof.
  induction t as [i p d kids IH] using stree_ind'. cbn [map_tree map_pos andb].
  f_equal. now apply map_kids_ext.
Qed.

Lemma mode_map_inside lno colo dln dcol self t :
  mode_map lno colo dln dcol self true t = map_pos (offset_spec lno colo dln dcol TFalse TTrue) t.
Proof.
  induction t as [i p d kids IH] using stree_ind'. cbn [mode_map map_pos orb].
  f_equal. now apply map_kids_ext.
Qed.

Theorem offset_mode_is_mode_map lno colo dln dcol self t : Ordered t ->
  offset_mode lno colo dln dcol self t = mode_map lno colo dln dcol self false t.
Proof.
  intros HO. unfold offset_mode. rewrite offset_top_self by assumption.
  induction t as [i p d kids IH] using stree_ind'.
  inversion HO as [i' p' d' kids' Hp Hs Hk]; subst.
  cbn [map_tree mode_map negb orb].
  destruct (Nat.eqb self i) eqn:Es; cbn [andb apply_at]; rewrite Es.
  - (* this is `self`: phase 1 moved it as a container and did not enter it; phase 2 walks its children *)
    rewrite offset_top_kids by assumption. f_equal.
    apply map_kids_ext. intros k _. now rewrite map_tree_none, mode_map_inside.
  - f_equal. rewrite map_kids_comp. apply map_kids_ext. intros k Hin. now apply IH, Hk.
Qed.

Lemma apply_at_replace_ext tgt new (f g : stree -> stree) t :
  (forall k, apply_at tgt (fun _ => new) (f k) = apply_at tgt (fun _ => new) (g k)) ->
  apply_at tgt (fun _ => new) (f t) = apply_at tgt (fun _ => new) (g t).
Proof. intros H. apply H. Qed.

(* replacing the excluded node afterwards makes it irrelevant that the map did not enter it *)
Lemma replace_forgets_exclusion lno colo dln dcol tail head tgt new oe t :
  apply_at tgt (fun _ => new) (map_tree lno colo dln dcol tail head (Some tgt) oe t)
  = apply_at tgt (fun _ => new) (map_pos (offset_spec lno colo dln dcol tail head) t).
Proof.
  induction t as [i p d kids IH] using stree_ind'. cbn [map_tree map_pos].
  destruct (Nat.eqb tgt i) eqn:E.
  - destruct oe; cbn [negb andb apply_at]; rewrite ?E; reflexivity.
  - cbn [andb apply_at]. rewrite E. f_equal. rewrite !map_kids_comp. now apply map_kids_ext.
Qed.

Theorem rigid_is_rigid_pos ln0 dcol0 new : Ordered new -> standalone new ->
  rigid ln0 dcol0 new = map_pos (rigid_pos ln0 dcol0) new.
Proof.
  intros HO Hs. unfold rigid. rewrite offset_top_self by assumption.
  rewrite map_tree_none. apply map_pos_ext_in.
  intros [[[l c] el] ec] Hq. destruct (Hs _ Hq) as [H1 H2].
  unfold rigid_pos. now apply spec_child_after.
Qed.

Lemma apply_at_node s f i p d kids :
  apply_at s f (SNode i p d kids)
  = if Nat.eqb s i then f (SNode i p d kids)
    else SNode i p d (map (fun k => match k with Some k => Some (apply_at s f k) | None => None end) kids).
Proof. reflexivity. Qed.

Theorem expr_replace_is_mode_map lno colo dln dcol parent target ln0 dcol0 new t :
  Ordered t -> Ordered new -> standalone new ->
  expr_replace lno colo dln dcol parent target ln0 dcol0 new t
  = apply_at target (fun _ => map_pos (rigid_pos ln0 dcol0) new) (mode_map lno colo dln dcol parent false t).
Proof.
  intros HO HOn Hs. unfold expr_replace.
  rewrite (rigid_is_rigid_pos ln0 dcol0 new HOn Hs), offset_top_self by assumption.
  induction t as [i p d kids IH] using stree_ind'.
  inversion HO as [i' p' d' kids' Hp Hsb Hk]; subst.
  cbn [map_tree mode_map negb orb].
  destruct (Nat.eqb parent i) eqn:Es; cbn [andb apply_at]; rewrite Es.
  - (* the parent: phase 1 did not enter it; phase 2 walks its children but not the target *)
    rewrite offset_top_kids by assumption.
    destruct (Nat.eqb target i) eqn:Et; cbn [apply_at]; rewrite Et; [reflexivity|].
    f_equal. rewrite !map_kids_comp. apply map_kids_ext. intros k _. rewrite mode_map_inside. apply replace_forgets_exclusion.
  - cbn [apply_at]. destruct (Nat.eqb target i) eqn:Et; [reflexivity|].
    f_equal. rewrite !map_kids_comp. apply map_kids_ext. intros k Hin. now apply IH, Hk.
Qed.
