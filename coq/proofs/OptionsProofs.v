(* An options() block saves, for every name it sets, the value read at that name's position on entry, and writes these
   back on exit. Stores are read position by position (nth): restoring gives back the entry value at every saved
   position and leaves the others as the body left them, whatever names repeat or are unknown. *)
From Coq Require Import List String Arith Lia.
From PF Require Import gen.OptionsTable models.Options.
Import ListNotations.

Notation len := List.length.

Lemma set_nth_s_length s i v : i < len s -> len (set_nth_s s i v) = len s.
Proof.
  intros H. unfold set_nth_s. rewrite app_length, firstn_length, Nat.min_l by lia.
  cbn [len]. rewrite skipn_length. lia.
Qed.

Lemma nth_set_nth_s s i j v d : i < len s -> nth j (set_nth_s s i v) d = if Nat.eqb i j then v else nth j s d.
Proof.
  unfold set_nth_s. revert i j; induction s as [|a s IH]; intros [|i] [|j] H; cbn in *; try reflexivity; try lia.
  apply IH. lia.
Qed.

Definition in_range (s : store) (ups : list upd) : Prop := Forall (fun u => fst u < len s) ups.

Lemma update_cons s u ups : update s (u :: ups) = update (set_nth_s s (fst u) (snd u)) ups.
Proof. reflexivity. Qed.

Lemma update_length s ups : in_range s ups -> len (update s ups) = len s.
Proof.
  unfold in_range. intros H; revert s H; induction ups as [|u ups IH]; intros s H; [reflexivity|].
  inversion_clear H as [|? ? Hu Hr].
  rewrite update_cons, IH by (rewrite set_nth_s_length; assumption).
  now apply set_nth_s_length.
Qed.

(* if every write at j writes v, and some write is at j or v stands there already, then v is read at j afterwards:
   positions that repeat do no harm as long as they carry the same value *)
Lemma update_at s ups j d v : in_range s ups -> (forall u, In u ups -> fst u = j -> snd u = v) ->
  In j (map fst ups) \/ nth j s d = v -> nth j (update s ups) d = v.
Proof.
  unfold in_range. revert s; induction ups as [|u ups IH]; intros s H Hw Hj; [now destruct Hj|].
  inversion_clear H as [|? ? Hu Hr]. rewrite update_cons.
  apply IH; [now rewrite set_nth_s_length|intros u' Hu'; apply Hw; now right|].
  rewrite nth_set_nth_s by assumption.
  destruct (Nat.eqb_spec (fst u) j) as [E|Hn]; [right; apply Hw; [now left|exact E]|].
  cbn [map In] in Hj. tauto.
Qed.

Lemma update_notin s ups j d : in_range s ups -> ~ In j (map fst ups) -> nth j (update s ups) d = nth j s d.
Proof.
  intros H Hj. apply update_at; [exact H| |now right].
  intros u Hu E. destruct Hj. rewrite <- E. now apply in_map.
Qed.

Lemma index_of_lt n l i : index_of n l = Some i -> i < len l.
Proof.
  revert i; induction l as [|x r IH]; intros i H; [discriminate|]. cbn in H.
  destruct (String.eqb n x); [injection H as <-; cbn; lia|].
  destruct (index_of n r) as [j|]; [|discriminate]. injection H as <-. cbn. specialize (IH j eq_refl). lia.
Qed.

(* the position of a request is inside the table whether or not its name is known: unknown names fall back to 0 *)
Lemma idx_or0_lt x : idx_or0 x < n_global.
Proof.
  unfold idx_or0, kv_idx. destruct (index_of (k_name x) global_option_names) eqn:E.
  - exact (index_of_lt _ _ _ E).
  - apply Nat.lt_0_succ.
Qed.

Lemma idx_in_range s kvs (f : kv -> string) : wf_store s -> in_range s (map (fun x => (idx_or0 x, f x)) kvs).
Proof. intros Hs. apply Forall_map, Forall_forall. intros x _. rewrite Hs. apply idx_or0_lt. Qed.

Lemma update_wf s kvs (f : kv -> string) : wf_store s -> wf_store (update s (map (fun x => (idx_or0 x, f x)) kvs)).
Proof. intros Hs. unfold wf_store. rewrite update_length; [exact Hs|now apply idx_in_range]. Qed.

Lemma update_idx_notin s kvs (f : kv -> string) j d : wf_store s -> ~ In j (map idx_or0 kvs) ->
  nth j (update s (map (fun x => (idx_or0 x, f x)) kvs)) d = nth j s d.
Proof. intros Hs Hj. apply update_notin; [now apply idx_in_range|now rewrite map_map]. Qed.

(* every saved value is the old value AT its position, so a name given twice is harmless *)
Lemma restore_after s s2 kvs : wf_store s -> wf_store s2 ->
  forall j d, nth j (update s2 (old_of s kvs)) d = if in_dec Nat.eq_dec j (map idx_or0 kvs) then nth j s d else nth j s2 d.
Proof.
  intros Hs Hs2 j d. destruct (in_dec Nat.eq_dec j (map idx_or0 kvs)) as [Hin|Hn]; [|now apply update_idx_notin].
  apply update_at; [now apply idx_in_range| |left; unfold old_of; now rewrite map_map].
  intros u (x & <- & _)%in_map_iff <-. cbn [fst snd]. apply nth_indep. rewrite Hs. apply idx_or0_lt.
Qed.

Lemma set_restore s kvs : wf_store s -> update (update s (new_of kvs)) (old_of s kvs) = s.
Proof.
  intros Hs. pose proof (update_wf s kvs k_val Hs) as Hn.
  apply (nth_ext _ _ ""%string ""%string).
  - rewrite Hs. apply update_wf, Hn.
  - intros j _. rewrite restore_after by assumption.
    destruct (in_dec Nat.eq_dec j (map idx_or0 kvs)); [reflexivity|]. now apply update_idx_notin.
Qed.

Lemma run_app t a b : run t (a ++ b) = run (run t a) b.
Proof. unfold run. apply fold_left_app. Qed.

Lemma run_cons t o l : run t (o :: l) = run (fst (step t o)) l.
Proof. reflexivity. Qed.

Definition entered (t : tstate) (kvs : list kv) : tstate :=
  {| st := update (st t) (new_of kvs); stack := old_of (st t) kvs :: stack t |}.

Lemma step_enter t kvs : all_ok kvs = true -> step t (OEnter kvs) = (entered t kvs, ROld (old_of (st t) kvs)).
Proof. intros H. cbn [step]. now rewrite H. Qed.

Lemma run_block t kvs body l : all_ok kvs = true -> stack (run (entered t kvs) body) = stack (entered t kvs) ->
  run t (OEnter kvs :: body ++ OExit :: l) =
  run {| st := update (st (run (entered t kvs) body)) (old_of (st t) kvs); stack := stack t |} l.
Proof.
  intros Hok Hb. rewrite run_cons, step_enter, run_app, run_cons by assumption.
  cbn [step fst]. now rewrite Hb.
Qed.

Lemma balanced_stack l : balanced l -> forall t, stack (run t l) = stack t /\ (wf_store (st t) -> wf_store (st (run t l))).
Proof.
  induction 1 as [|n c l Hl IH|kvs l Hl IH|kvs l Hrej Hl IH|kvs body l Hok Hb IHb Hl IHl]; intros t.
  - now split.
  - apply IH.
  - rewrite run_cons. cbn [step]. destruct (all_ok kvs); cbn [fst]; [|apply IH].
    split; [exact (proj1 (IH _))|]. intros Hs. apply IH, update_wf, Hs.
  - rewrite run_cons. cbn [step]. rewrite Hrej. apply IH.
  - destruct (IHb (entered t kvs)) as [B1 B2].
    rewrite run_block by assumption.
    split; [exact (proj1 (IHl _))|]. intros Hs. apply IHl, update_wf, B2, update_wf, Hs.
Qed.

Theorem block_restore t kvs body : all_ok kvs = true -> wf_store (st t) -> balanced body ->
  let t1 := fst (step t (OEnter kvs)) in
  let t2 := run t1 body in
  let t3 := fst (step t2 OExit) in
  stack t3 = stack t /\
  forall j d, nth j (st t3) d = if in_dec Nat.eq_dec j (map idx_or0 kvs) then nth j (st t) d else nth j (st t2) d.
Proof.
  intros Hok Hs Hb. cbn zeta. rewrite step_enter by assumption. cbn [fst].
  destruct (balanced_stack body Hb (entered t kvs)) as [B1 B2].
  cbn [step]. rewrite B1. split; [reflexivity|].
  apply restore_after; [exact Hs|]. apply B2, update_wf, Hs.
Qed.

Theorem quiet_identity l : quiet l -> forall t, wf_store (st t) -> run t l = t.
Proof.
  induction 1 as [|n c l Hl IH|kvs l Hrej Hl IH|kvs l Hrej Hl IH|kvs body l Hok Hb IHb Hl IHl]; intros t Hs.
  - reflexivity.
  - now apply IH.
  - rewrite run_cons. cbn [step]. rewrite Hrej. now apply IH.
  - rewrite run_cons. cbn [step]. rewrite Hrej. now apply IH.
  - pose proof (update_wf _ kvs k_val Hs) as W1.
    rewrite run_block; [|exact Hok|now rewrite IHb].
    rewrite IHb by exact W1. cbn [entered st].
    rewrite set_restore by assumption. destruct t. now apply IHl.
Qed.

Lemma wget_wset w i t j : wget (wset w i t) j = if Nat.eqb i j then t else wget w j.
Proof.
  induction w as [|[k t0] r IH]; cbn; [reflexivity|].
  destruct (Nat.eqb_spec k i) as [->|Hn]; cbn; [now destruct (Nat.eqb i j)|].
  rewrite IH. destruct (Nat.eqb_spec k j), (Nat.eqb_spec i j); congruence.
Qed.

Lemma wrun_cons w e l : wrun w (e :: l) = wrun (wstep w e) l.
Proof. reflexivity. Qed.

Theorem interleaving_projection l : forall w tid, wget (wrun w l) tid = run (wget w tid) (proj tid l).
Proof.
  induction l as [|[i o] l IH]; intros w tid; [reflexivity|].
  rewrite wrun_cons, IH. unfold wstep, proj. rewrite wget_wset. cbn [filter fst snd].
  destruct (Nat.eqb_spec i tid) as [->|]; reflexivity.
Qed.

(* a fixed table: removing duplicates leaves it as it is *)
Lemma option_names_nodup : NoDup global_option_names.
Proof. rewrite <- (eq_refl : nodup string_dec global_option_names = global_option_names). apply NoDup_nodup. Qed.

Fixpoint pos_of (a : string) (l : list string) : nat :=
  match l with [] => 0 | x :: r => if String.eqb a x then 0 else S (pos_of a r) end.
