(* Proofs about models/Delimit.v: where every node of the tree is after a pair of delimiters was put around T.
   A put of one character adds no line: it shifts the columns of one line at or after one point (`moved`).  After both
   puts a point stands at `col2`, whatever span it belongs to, and the removal (`uncol`) takes each point back; the
   statements about spans are linear arithmetic over these closed forms. *)
From Coq Require Import ZArith List Bool Lia ZifyBool.
From PF Require Import kernel.OffsetBase gen.DelimitCalls models.Offset models.Delimit proofs.OffsetProofs.
Local Open Scope Z_scope.

(* One put that adds no line: the columns on the point's line shift, at or after the point; `a`: also the column AT the
   point.  Spelled with `if a` and not, as move_point has it, (c >? colo) || (c =? colo) && a: with that spelling every
   lia call below costs several times as much. *)
Definition moved (lno colo : Z) (a : bool) (l c : Z) : bool := (l =? lno) && (if a then colo <=? c else colo <? c).

Lemma move_point_col lno colo d a l c :
  move_point lno colo 0 d a l c = (l, c + d * Z.b2z (moved lno colo a l c)).
Proof.
  unfold move_point, moved. rewrite Z.add_0_r.
  replace ((c >? colo) || (c =? colo) && a) with (if a then colo <=? c else colo <? c) by (destruct a; lia).
  destruct (l >? lno) eqn:E1, (l =? lno) eqn:E2, (if a then _ else _); cbn [andb Z.b2z]; f_equal; lia.
Qed.

Lemma moved_flag lno colo a a' l c : (l =? lno) && (c =? colo) = false -> moved lno colo a l c = moved lno colo a' l c.
Proof. unfold moved. destruct a, a'; lia. Qed.

(* tail = head: both ends of a span treat the point alike *)
Lemma put_TT lno colo d l c el ec :
  offset_spec lno colo 0 d TTrue TTrue (l, c, el, ec)
  = (l, c + d * Z.b2z (moved lno colo true l c), el, ec + d * Z.b2z (moved lno colo true el ec)).
Proof. rewrite offset_spec_ends. cbv zeta. rewrite !move_point_col. now destruct (is_fwd 0 d), (_ && _). Qed.

Lemma put_FF lno colo d l c el ec :
  offset_spec lno colo 0 d TFalse TFalse (l, c, el, ec)
  = (l, c + d * Z.b2z (moved lno colo false l c), el, ec + d * Z.b2z (moved lno colo false el ec)).
Proof. rewrite offset_spec_ends. cbv zeta. rewrite !move_point_col. now destruct (is_fwd 0 d), (_ && _). Qed.

(* tail=False, head=True: the point belongs to what starts there - except to an empty span when characters are added *)
Lemma put_FT lno colo d l c el ec :
  offset_spec lno colo 0 d TFalse TTrue (l, c, el, ec)
  = (l, c + d * Z.b2z (moved lno colo (negb (is_fwd 0 d) || negb ((l =? el) && (c =? ec))) l c),
     el, ec + d * Z.b2z (moved lno colo false el ec)).
Proof. rewrite offset_spec_ends. cbv zeta. rewrite !move_point_col. now destruct (is_fwd 0 d), (_ && _). Qed.

(* the role reading of exclude / offset_excluded is what the tree walk's map does *)
Lemma put_at_is_map_tree pc lno colo p t i s : pc_excl_self pc = true ->
  map_tree lno colo 0 1 (pc_tail pc) (pc_head pc) (Some 1%nat) (pc_offset_excluded pc) (shape p t i s)
  = shape (put_at pc lno colo 1 ROther p) (put_at pc lno colo 1 RSelf t) (put_at pc lno colo 1 RInner i) (put_at pc lno colo 1 ROther s).
Proof.
  intros E. unfold shape, put_at. rewrite E. destruct (pc_offset_excluded pc); reflexivity.
Qed.

(* the flags the code uses (TRANSLATED): a change of any of them breaks these *)
Lemma delimit_flags :
  delimit_close = {| pc_tail := TTrue; pc_head := TTrue; pc_excl_self := true; pc_offset_excluded := true |}
  /\ delimit_open = {| pc_tail := TFalse; pc_head := TFalse; pc_excl_self := true; pc_offset_excluded := true |}
  /\ delimit_inner = {| ic_tail := TFalse; ic_head := TTrue; ic_self := false |}.
Proof. repeat split; reflexivity. Qed.

Lemma group_flags :
  group_close = {| pc_tail := TTrue; pc_head := TTrue; pc_excl_self := true; pc_offset_excluded := false |}
  /\ group_open = {| pc_tail := TFalse; pc_head := TFalse; pc_excl_self := true; pc_offset_excluded := false |}
  /\ group_inner = {| ic_tail := TFalse; ic_head := TTrue; ic_self := true |}.
Proof. repeat split; reflexivity. Qed.

Lemma ungroup_flags :
  ungroup_close = {| pc_tail := TTrue; pc_head := TTrue; pc_excl_self := false; pc_offset_excluded := true |}
  /\ ungroup_open = {| pc_tail := TFalse; pc_head := TTrue; pc_excl_self := false; pc_offset_excluded := true |}.
Proof. split; reflexivity. Qed.

Lemma undelimit_flags :
  undelimit_close = {| pc_tail := TTrue; pc_head := TTrue; pc_excl_self := false; pc_offset_excluded := true |}
  /\ undelimit_open = {| pc_tail := TFalse; pc_head := TTrue; pc_excl_self := false; pc_offset_excluded := true |}.
Proof. split; reflexivity. Qed.

Lemma put_at_all pc lno colo d r q : pc_excl_self pc = false ->
  put_at pc lno colo d r q = offset_spec lno colo 0 d (pc_tail pc) (pc_head pc) q.
Proof. intros E. unfold put_at. rewrite E. destruct r; reflexivity. Qed.

(* What the calls do to a node, by its role, with the translated flags put in: each equation holds by computation. *)
Section Roles.
  Variables ls cs le ce : Z.

  Lemma delimit_pos_other q :
    delimit_pos ls cs le ce ROther q = offset_spec ls cs 0 1 TFalse TFalse (offset_spec le ce 0 1 TTrue TTrue q).
  Proof. reflexivity. Qed.

  Lemma delimit_pos_inner q : delimit_pos ls cs le ce RInner q = offset_spec ls cs 0 1 TFalse TTrue q.
  Proof. reflexivity. Qed.

  Lemma delimit_pos_self q :
    delimit_pos ls cs le ce RSelf q
    = set_start (offset_spec ls cs 0 1 TFalse TFalse (set_end (offset_spec le ce 0 1 TTrue TTrue q) le (ce + 1))) ls cs.
  Proof. reflexivity. Qed.

  (* grouping parentheses stay outside T: T moves like the nodes below it, every other node as with _delimit_node *)
  Lemma group_pos_eq r q :
    group_pos ls cs le ce r q = delimit_pos ls cs le ce (match r with RSelf => RInner | _ => r end) q.
  Proof. now destruct r. Qed.

  (* no call of the removal excludes T: every role goes through the same two maps *)
  Lemma ungroup_pos_eq e r q :
    ungroup_pos ls cs le e r q = offset_spec ls (cs + 1) 0 (-1) TFalse TTrue (offset_spec le (e + 1) 0 (-1) TTrue TTrue q).
  Proof. now destruct r. Qed.

  Lemma undelimit_pos_eq e r q : undelimit_pos ls cs le e r q = ungroup_pos ls cs le e r q.
  Proof. now destruct r. Qed.
End Roles.

(* where text is afterwards; the END of a span is one past its last character *)
Definition end_col (ls cs le ce el ec : Z) : Z :=
  ec + b2z ((el =? ls) && (cs <? ec)) + b2z ((el =? le) && (ce <? ec)).

Section Wrap.
  Variables ls cs le ce : Z.
  Hypothesis HT : pos_lt ls cs le ce = true.

  (* the column of a point after both puts: the opening delimiter counts for the points at or after T's start, the closing
     one for those at or after T's end (a1, a2: also for the point AT it) *)
  Definition col2 (a1 a2 : bool) (l c : Z) : Z := c + Z.b2z (moved ls cs a1 l c) + Z.b2z (moved le ce a2 l c).

  Lemma char_col_col2 l c : char_col ls cs le ce l c = col2 true true l c.
  Proof. reflexivity. Qed.

  Lemma end_col_col2 l c : end_col ls cs le ce l c = col2 false false l c.
  Proof. reflexivity. Qed.

  (* cols: goals about columns, all definitions unfolded, are linear arithmetic *)
  Ltac cols := unfold col2, char_col, end_col, moved; change b2z with Z.b2z; pos_side.

  Lemma span_eq (l c c' el ec ec' : Z) : c = c' -> ec = ec' -> (l, c, el, ec) = (l, c', el, ec').
  Proof. now intros -> ->. Qed.

  (* the closing delimiter is put first; it does not move a point across T's start *)
  Lemma put_put a1 a2 l c : moved ls cs a1 l (c + Z.b2z (moved le ce a2 l c)) = moved ls cs a1 l c.
  Proof. unfold moved. unfold pos_lt in HT. destruct a1, a2; lia. Qed.

  (* a node that is not T and not below T, whatever its span: the closing put with tail = head = True, then the opening one
     with tail = head = False *)
  Lemma wrap_other_cols l c el ec :
    delimit_pos ls cs le ce ROther (l, c, el, ec) = (l, col2 false true l c, el, col2 false true el ec).
  Proof.
    rewrite delimit_pos_other, put_TT, put_FF, !Z.mul_1_l, !put_put. unfold col2.
    now rewrite (Z.add_shuffle0 c), (Z.add_shuffle0 ec).
  Qed.

  (* a node below T sees the wrapping _offset at T's start only; it ends within T, so the closing delimiter would not
     count for it anyway *)
  Lemma wrap_inner_cols l c el ec : pos_lt l c el ec = true -> pos_le el ec le ce = true ->
    delimit_pos ls cs le ce RInner (l, c, el, ec) = (l, col2 true false l c, el, col2 false false el ec).
  Proof.
    intros Hne He. rewrite delimit_pos_inner, put_FT, !Z.mul_1_l.
    replace ((l =? el) && (c =? ec)) with false by pos_side.
    unfold col2.
    replace (moved le ce false l c) with false by cols.
    replace (moved le ce false el ec) with false by cols.
    now rewrite !Z.add_0_r.
  Qed.

  (* _delimit_node *)
  Theorem delimit_self : delimit_pos ls cs le ce RSelf (ls, cs, le, ce) = (ls, cs, le, ce + 1 + b2z (le =? ls)).
  Proof.
    rewrite delimit_pos_self, put_TT. cbn [set_end]. rewrite put_FF. cbn [set_start].
    apply span_eq; [reflexivity|cols].
  Qed.

  (* beside T the start is never AT T's start and the end never AT T's end, so both are where the text is *)
  Theorem delimit_frame l c el ec : pos_lt l c el ec = true ->
    pos_le el ec ls cs = true \/ pos_le le ce l c = true ->
    delimit_pos ls cs le ce ROther (l, c, el, ec) = (l, char_col ls cs le ce l c, el, end_col ls cs le ce el ec).
  Proof.
    intros Hne H. rewrite wrap_other_cols, char_col_col2, end_col_col2. unfold col2.
    rewrite (moved_flag ls cs false true l c), (moved_flag le ce true false el ec); [reflexivity| |].
    - destruct H; pos_side.
    - destruct H; pos_side.
  Qed.

  Theorem delimit_inner_frame l c el ec : pos_lt l c el ec = true -> pos_le el ec le ce = true ->
    delimit_pos ls cs le ce RInner (l, c, el, ec) = (l, char_col ls cs le ce l c, el, end_col ls cs le ce el ec).
  Proof.
    intros Hne He. rewrite wrap_inner_cols, char_col_col2 by assumption. unfold col2.
    rewrite (moved_flag le ce true false l c); [reflexivity|pos_side].
  Qed.

  Theorem delimit_ancestors l c el ec : pos_le l c ls cs = true -> pos_le le ce el ec = true ->
    delimit_pos ls cs le ce ROther (l, c, el, ec) = (l, c, el, ec + b2z (el =? ls) + b2z (el =? le)).
  Proof.
    intros Hs He. rewrite wrap_other_cols. apply span_eq; [cols|].
    (* delimiter by delimiter (one lia over both is ten times as dear): at or after T's end each counts iff it is on the line *)
    unfold col2. change b2z with Z.b2z. f_equal; [f_equal|]; f_equal; cols.
  Qed.

  (* what follows T starts at or after T's new end: never inside the closing delimiter *)
  Theorem delimit_next_not_overlapped l c el ec : pos_lt l c el ec = true -> pos_le le ce l c = true ->
    let '(_, _, tel, tec) := delimit_pos ls cs le ce RSelf (ls, cs, le, ce) in
    let '(l', c', _, _) := delimit_pos ls cs le ce ROther (l, c, el, ec) in
    pos_le tel tec l' c' = true.
  Proof. intros Hne Haf. rewrite delimit_self, delimit_frame by auto. cols. Qed.

  (* _parenthesize_grouping: T is moved like the nodes below it and lies strictly inside the parentheses *)
  Theorem group_self : group_pos ls cs le ce RSelf (ls, cs, le, ce) = (ls, cs + 1, le, ce + b2z (le =? ls)).
  Proof.
    rewrite group_pos_eq, wrap_inner_cols by (assumption || apply pos_le_refl).
    apply span_eq; cols.
  Qed.

  (* removing the delimiters again: `)` now ends at (le, e + 1), T's first character is at (ls, cs + 1) *)
  Let e := ce + b2z (le =? ls).

  (* after both puts a point is at or after the end of `)` iff the closing put moved it ... *)
  Lemma unput_close a1 a2 l c : moved le (e + 1) true l (col2 a1 a2 l c) = moved le ce a2 l c.
  Proof.
    subst e. unfold col2, moved at 1 4. destruct (l =? le) eqn:E; [|reflexivity]. cbn [andb].
    (* on the line of `)`, by whether T began on it too (one lia over both cases is four times as dear) *)
    apply Z.eqb_eq in E. subst l. unfold moved. rewrite Z.eqb_refl. change b2z with Z.b2z. unfold pos_lt in HT.
    destruct (le =? ls) eqn:E1; cbn [andb Z.b2z]; destruct a1, a2; lia.
  Qed.

  (* ... and after the opening put alone it is at or after T's first character iff that put moved it *)
  Lemma unput_open a b l c : (a = true -> b = true) ->
    moved ls (cs + 1) b l (c + Z.b2z (moved ls cs a l c)) = moved ls cs a l c.
  Proof. intros H. unfold moved. destruct a, b; lia. Qed.

  (* the column after both removals; b: the removal at T's start also takes the point AT T's first character *)
  Definition uncol (b : bool) (l x : Z) : Z :=
    let x' := x + -1 * Z.b2z (moved le (e + 1) true l x) in x' + -1 * Z.b2z (moved ls (cs + 1) b l x').

  Lemma unwrap_cols r l x el y : ungroup_pos ls cs le e r (l, x, el, y) = (l, uncol true l x, el, uncol false el y).
  Proof. rewrite ungroup_pos_eq, put_TT, put_FT. reflexivity. Qed.

  Lemma uncol_col2 a1 a2 b l c : (a1 = true -> b = true) -> uncol b l (col2 a1 a2 l c) = c.
  Proof.
    intros H. unfold uncol. cbv zeta. rewrite unput_close.
    replace (col2 a1 a2 l c + -1 * Z.b2z (moved le ce a2 l c)) with (c + Z.b2z (moved ls cs a1 l c))
      by (unfold col2; lia).
    rewrite unput_open by assumption. lia.
  Qed.

  Theorem unwrap_wrap_other r q : ungroup_pos ls cs le e r (delimit_pos ls cs le ce ROther q) = q.
  Proof.
    destruct q as [[[l c] el] ec]. rewrite wrap_other_cols, unwrap_cols.
    now rewrite !uncol_col2 by discriminate.
  Qed.

  (* T (grouping) and the nodes below it: the closing put did not touch them *)
  Theorem unwrap_wrap_inner r l c el ec : pos_lt l c el ec = true -> pos_le el ec le ce = true ->
    ungroup_pos ls cs le e r (delimit_pos ls cs le ce RInner (l, c, el, ec)) = (l, c, el, ec).
  Proof.
    intros Hne He. rewrite wrap_inner_cols, unwrap_cols by assumption.
    now rewrite !uncol_col2 by auto.
  Qed.

  Theorem undelimit_delimit_self :
    undelimit_pos ls cs le e RSelf (delimit_pos ls cs le ce RSelf (ls, cs, le, ce)) = (ls, cs, le, ce).
  Proof.
    (* T ends up where an ancestor with T's own span would *)
    replace (delimit_pos ls cs le ce RSelf (ls, cs, le, ce)) with (delimit_pos ls cs le ce ROther (ls, cs, le, ce)).
    - rewrite undelimit_pos_eq. apply unwrap_wrap_other.
    - rewrite delimit_self, delimit_ancestors by apply pos_le_refl.
      rewrite Z.eqb_refl. apply span_eq; [reflexivity|cbn [b2z]; lia].
  Qed.
End Wrap.

(* non-vacuity: x = f'{a,b:x}' - the tuple at columns 7..10 of line 1, the format specification starts at 10 *)
Example delimit_fstring_field :
  delimit_pos 1 7 1 10 RSelf (1, 7, 1, 10) = (1, 7, 1, 12) /\ delimit_pos 1 7 1 10 ROther (1, 10, 1, 12) = (1, 12, 1, 14)
  /\ delimit_pos 1 7 1 10 RInner (1, 9, 1, 10) = (1, 10, 1, 11) /\ delimit_pos 1 7 1 10 ROther (1, 4, 1, 14) = (1, 4, 1, 16).
Proof. vm_compute. repeat split. Qed.
