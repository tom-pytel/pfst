(* Registries are compared by what rget reads in them (req). Every operation reads and writes the binding of its own
   root only (bstep): operations on different roots commute. On that binding leave undoes enter as long as stored depths
   are positive (wf): any nest of blocks gives the registry back, by induction on the nest. *)
From Coq Require Import List Bool Arith Lia.
From PF Require Import models.Registry proofs.ListFacts.
Import ListNotations.

Definition req (a b : reg) : Prop := forall r, rget a r = rget b r.

Lemma rget_rset g r e r' : rget (rset g r e) r' = if Nat.eqb r r' then Some e else rget g r'.
Proof. reflexivity. Qed.

Lemma rget_rdel g r r' : rget (rdel g r) r' = if Nat.eqb r r' then None else rget g r'.
Proof.
  induction g as [|[k e] t IH]; cbn [rdel rget]; [now destruct (Nat.eqb r r')|].
  destruct (Nat.eqb_spec k r) as [->|Hk]; cbn [rget]; rewrite IH.
  - now destruct (Nat.eqb r r').
  - destruct (Nat.eqb_spec k r'), (Nat.eqb_spec r r'); congruence.
Qed.

(* what an operation makes of the binding of its own root, and whether it is admitted *)
Definition bstep (b : option entry) (o : rop) : option entry * bool :=
  match o, b with
  | REnter _ n f, Some (n0, d) => if negb (Nat.eqb n n0) && negb f then (b, false) else (Some (n0, S d), true)
  | REnter _ n _, None => (Some (n, 1), true)
  | RLeave _, Some (n0, d) => (if Nat.ltb 1 d then Some (n0, d - 1) else None, true)
  | RLeave _, None => (None, false)
  end.

Lemma rstep_ok g o : snd (rstep g o) = snd (bstep (rget g (rop_root o)) o).
Proof.
  destruct o as [r n f|r]; cbn [rstep rop_root bstep]; unfold enter, leave; destruct (rget g r) as [[n0 d]|].
  - now destruct (negb (Nat.eqb n n0) && negb f).
  - reflexivity.
  - now destruct (Nat.ltb 1 d).
  - reflexivity.
Qed.

Lemma rget_rstep g o r' :
  rget (fst (rstep g o)) r' = if Nat.eqb (rop_root o) r' then fst (bstep (rget g (rop_root o)) o) else rget g r'.
Proof.
  assert (Same : forall r, rget g r' = if Nat.eqb r r' then rget g r else rget g r').
  { intros r. now destruct (Nat.eqb_spec r r') as [->|]. }
  destruct o as [r n f|r]; cbn [rstep rop_root bstep]; unfold enter, leave; destruct (rget g r) as [[n0 d]|] eqn:E.
  - destruct (negb (Nat.eqb n n0) && negb f); cbn [fst]; [rewrite <- E; apply Same|apply rget_rset].
  - apply rget_rset.
  - destruct (Nat.ltb 1 d); cbn [fst]; [apply rget_rset|apply rget_rdel].
  - cbn [fst]. rewrite <- E. apply Same.
Qed.

Lemma rstep_other g o r' : rop_root o <> r' -> rget (fst (rstep g o)) r' = rget g r'.
Proof. intros H. rewrite rget_rstep. now apply Nat.eqb_neq in H as ->. Qed.

Lemma rstep_req a b o : req a b -> req (fst (rstep a o)) (fst (rstep b o)) /\ snd (rstep a o) = snd (rstep b o).
Proof.
  intros H. split.
  - intros r'. now rewrite !rget_rstep, !H.
  - now rewrite !rstep_ok, H.
Qed.

(* threads editing different trees do not see each other *)
Theorem reg_disjoint_commute g o1 o2 : rop_root o1 <> rop_root o2 ->
  req (fst (rstep (fst (rstep g o1)) o2)) (fst (rstep (fst (rstep g o2)) o1)) /\
  snd (rstep (fst (rstep g o1)) o2) = snd (rstep g o2) /\ snd (rstep (fst (rstep g o2)) o1) = snd (rstep g o1).
Proof.
  intros Hne.
  assert (E2 : rget (fst (rstep g o1)) (rop_root o2) = rget g (rop_root o2)) by now apply rstep_other.
  assert (E1 : rget (fst (rstep g o2)) (rop_root o1) = rget g (rop_root o1)) by (apply rstep_other; congruence).
  split; [|split].
  - intros r. rewrite (rget_rstep (fst _)), E2, (rget_rstep (fst _)), E1, !rget_rstep.
    destruct (Nat.eqb_spec (rop_root o1) r), (Nat.eqb_spec (rop_root o2) r); congruence.
  - now rewrite !rstep_ok, E2.
  - now rewrite !rstep_ok, E1.
Qed.

Theorem reg_reject_pure g r n f : enter g r n f = None -> rstep g (REnter r n f) = (g, false).
Proof. intros H. cbn. now rewrite H. Qed.

Definition wf (g : reg) : Prop := forall r n d, rget g r = Some (n, d) -> d >= 1.

Lemma wf_nil : wf [].
Proof. intros r n d E. discriminate. Qed.

Lemma wf_req a b : req a b -> wf a -> wf b.
Proof. intros H W r n d E. apply (W r n d). now rewrite (H r). Qed.

Lemma rstep_wf g o : wf g -> wf (fst (rstep g o)).
Proof.
  intros W r' n' d'. rewrite rget_rstep. destruct (Nat.eqb (rop_root o) r'); [|apply W].
  destruct o as [r n f|r]; cbn [bstep rop_root]; destruct (rget g r) as [[n0 d]|] eqn:E.
  - destruct (negb (Nat.eqb n n0) && negb f); cbn [fst]; intros [= <- <-]; [exact (W r _ _ E)|lia].
  - intros [= <- <-]. lia.
  - destruct (Nat.ltb_spec 1 d); cbn [fst]; intros [= <- <-]. lia.
  - discriminate.
Qed.

Lemma enter_wf g r n f g1 : wf g -> enter g r n f = Some g1 -> wf g1.
Proof. intros W E. pose proof (rstep_wf g (REnter r n f) W) as H. cbn [rstep] in H. now rewrite E in H. Qed.

Lemma leave_wf g r g1 : wf g -> leave g r = Some g1 -> wf g1.
Proof. intros W E. pose proof (rstep_wf g (RLeave r) W) as H. cbn [rstep] in H. now rewrite E in H. Qed.

(* a stored depth 0 would come back from enter and leave as no binding at all: hence wf *)
Lemma enter_leave g r n f g1 g2 : wf g -> enter g r n f = Some g1 -> req g2 g1 ->
  exists g3, leave g2 r = Some g3 /\ req g3 g.
Proof.
  unfold enter, leave. intros W He Hq. rewrite (Hq r).
  destruct (rget g r) as [[n0 d]|] eqn:Eg.
  - destruct (negb _ && negb f); [discriminate|]. injection He as <-.
    rewrite rget_rset, Nat.eqb_refl.
    pose proof (W r n0 d Eg). destruct (Nat.ltb_spec 1 (S d)); [|lia].
    eexists; split; [reflexivity|].
    intros r'. rewrite rget_rset, (Hq r'), rget_rset. destruct (Nat.eqb_spec r r') as [<-|]; [|reflexivity].
    rewrite Eg. repeat f_equal. lia.
  - injection He as <-. rewrite rget_rset, Nat.eqb_refl. cbn [Nat.ltb Nat.leb].
    eexists; split; [reflexivity|].
    intros r'. rewrite rget_rdel, (Hq r'), rget_rset. destruct (Nat.eqb_spec r r') as [<-|]; congruence.
Qed.

Section ItemInd.
  Variable P : item -> Prop.
  Hypothesis H : forall r n f body boom, Forall P body -> P (Blk r n f body boom).
  Fixpoint item_ind' (i : item) : P i :=
    let 'Blk r n f body boom := i in H r n f body boom (Forall_all item_ind' body).
End ItemInd.

Lemma run_item_unfold g r n f body boom :
  run_item g (Blk r n f body boom) =
  match enter g r n f with
  | None => (g, true)
  | Some g1 => let '(g2, raised) := run_items g1 body in
               match leave g2 r with Some g3 => (g3, raised || boom) | None => (g2, true) end
  end.
Proof. reflexivity. Qed.

Lemma items_restore l : Forall (fun i => forall g, wf g -> req (fst (run_item g i)) g) l ->
  forall g, wf g -> req (fst (run_items g l)) g.
Proof.
  induction 1 as [|x t Hx _ IH]; intros g W; [intros r; reflexivity|]. cbn [run_items].
  specialize (Hx g W).
  destruct (run_item g x) as [g' [|]]; [exact Hx|]. cbn [fst] in Hx.
  intros r. rewrite IH; [apply Hx|].
  apply (wf_req g); [|assumption]. intros r'. symmetry. apply Hx.
Qed.

Theorem item_restores i : forall g, wf g -> req (fst (run_item g i)) g.
Proof.
  induction i as [r n f body boom IH] using item_ind'. intros g W.
  rewrite run_item_unfold. destruct (enter g r n f) as [g1|] eqn:Ee; [|intros r'; reflexivity].
  pose proof (items_restore body IH g1 (enter_wf g r n f g1 W Ee)) as B.
  destruct (run_items g1 body) as [g2 raised].
  destruct (enter_leave g r n f g1 g2 W Ee B) as (g3 & -> & Hq). exact Hq.
Qed.

Theorem reg_bracket l : forall g, wf g -> req (fst (run_items g l)) g.
Proof. apply items_restore, Forall_forall. intros i _. apply item_restores. Qed.

Corollary reg_ends_empty l r : rget (fst (run_items [] l)) r = None.
Proof. exact (reg_bracket l [] wf_nil r). Qed.

Theorem reg_next_edit l r n f : exists g', enter (fst (run_items [] l)) r n f = Some g'.
Proof. unfold enter. rewrite reg_ends_empty. eexists; reflexivity. Qed.
