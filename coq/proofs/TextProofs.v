(* K1 theorems: every branch of _put_src is the one algebraic splice; the splice is local. *)
From Coq Require Import List Lia Arith.
From PF Require Import kernel.PyBase kernel.Container kernel.Text proofs.ListFacts proofs.ContainerProofs proofs.BistrProofs.
Import ListNotations.

Lemma set_nth_eq {A} (l : list A) i x : set_nth l i x = set_range l i (S i) [x].
Proof. reflexivity. Qed.

(* set_range is Container.put_slice_spec, by conversion: the laws of the list splice apply *)
Lemma firstn_set_range {A} (l : list A) a b new : a <= length l -> firstn a (set_range l a b new) = firstn a l.
Proof. exact (put_slice_firstn l a b new). Qed.

Lemma skipn_set_range {A} (l : list A) a b new : a <= length l ->
  skipn (a + length new) (set_range l a b new) = skipn b l.
Proof. exact (put_slice_skipn l a b new). Qed.

(* All five branches of _put_src compute the same splice; only the two lines have to exist, the columns play no part.
   The branches that insert several lines are two or three list splices in a row on the line list split around
   lines ln and eln. *)
Theorem put_src_splice L P ln col eln ecol :
  ln <= eln < length L -> put_lines_of P <> [] ->
  put_src L P ln col eln ecol = put_spec L (put_lines_of P) ln col eln ecol.
Proof.
  intros Hl Hne. unfold put_src, put_spec, lineAt, pytext, pyline in *.
  destruct P as [[|p0 [|p1 rest]]|]; cbn [put_lines_of glue] in *.
  - congruence.
  - (* one new line *)
    destruct (Nat.eqb_spec eln ln) as [->|Hn]; reflexivity.
  - (* several new lines: p0, the lines mid, a last line q *)
    destruct (exists_last (l := p1 :: rest)) as (mid & q & ->); [discriminate|].
    rewrite !removelast_last, !last_last.
    set (x := firstn col (nth ln L []) ++ p0).
    set (y := q ++ skipn ecol (nth eln L [])).
    assert (HA : length (firstn ln L) = ln) by (apply firstn_length_le; lia).
    cbv zeta. rewrite !set_nth_eq. change (@set_range) with (@put_slice_spec).
    destruct (Nat.eqb_spec eln ln) as [->|Hn].
    + (* same line: line ln becomes x, mid ++ [q] goes in behind it, then q becomes y *)
      fold y. unfold put_slice_spec at 3.
      rewrite (app_assoc (firstn ln L)).
      rewrite (splice_app (firstn ln L ++ [x]) [] (skipn (S ln) L) (S ln) (S ln))
        by (rewrite ?app_length; cbn [length]; lia).
      rewrite <- (app_assoc mid), (app_assoc (firstn ln L ++ [x])).
      rewrite (splice_app ((firstn ln L ++ [x]) ++ mid) [q] (skipn (S ln) L) _ _ [y])
        by (cbn [length]; rewrite ?app_length; cbn [length]; lia).
      cbn [app]. now rewrite <- !app_assoc.
    + (* different lines: line ln becomes x, line eln becomes y, the lines between become mid *)
      rewrite (split_at2 L ln eln []) at 1 by lia.
      set (M := firstn (eln - ln - 1) (skipn (S ln) L)).
      assert (HM : length M = eln - ln - 1) by (apply firstn_length_le; rewrite skipn_length; lia).
      rewrite (splice_app (firstn ln L) [nth ln L []] (M ++ nth eln L [] :: skipn (S eln) L) ln (S ln))
        by (cbn [length]; lia).
      rewrite !app_assoc, <- (app_assoc _ [x]).
      rewrite (splice_app (firstn ln L ++ [x] ++ M) [nth eln L []] (skipn (S eln) L) eln (S eln))
        by (rewrite ?app_length; cbn [length]; lia).
      rewrite <- !app_assoc, (app_assoc _ [x]).
      rewrite (splice_app (firstn ln L ++ [x]) M ([y] ++ skipn (S eln) L) (S ln) eln)
        by (rewrite ?app_length; cbn [length]; lia).
      cbn [app]. now rewrite <- !app_assoc.
  - (* delete *)
    destruct (Nat.eqb_spec eln ln) as [->|Hn]; [|reflexivity].
    destruct (Nat.eqb_spec ecol col) as [->|Hn]; [|reflexivity].
    (* nothing to delete: the splice is the identity *)
    cbn [negb app]. rewrite firstn_skipn. apply split_at. lia.
Qed.

Theorem put_src_is_spec L P ln col eln ecol :
  valid_loc L ln col eln ecol -> put_lines_of P <> [] ->
  put_src L P ln col eln ecol = put_spec L (put_lines_of P) ln col eln ecol.
Proof. intros (Hle & Hlen & _). apply put_src_splice. lia. Qed.

Lemma glue_length x put y : length (glue x put y) = S (length put - 1).
Proof.
  destruct put as [|p [|q r]]; try reflexivity.
  cbn [glue length]. rewrite app_length, removelast_length. cbn [length]. lia.
Qed.

Lemma glue_pieces x p mid q y : glue x (p :: mid ++ [q]) y = (x ++ p) :: mid ++ [q ++ y].
Proof.
  unfold glue. destruct (mid ++ [q]) eqn:E; [now destruct mid|]. rewrite <- E.
  now rewrite removelast_last, last_last.
Qed.

Lemma put_spec_at (A B : pytext) l put col ecol n : length A = n ->
  put_spec (A ++ l :: B) put n col n ecol = A ++ glue (firstn col l) put (skipn ecol l) ++ B.
Proof.
  intros <-. unfold put_spec, lineAt. rewrite firstn_app_exact, nth_middle by reflexivity. do 2 f_equal.
  change (l :: B) with ([l] ++ B). rewrite app_assoc. apply skipn_app_exact.
  rewrite app_length. cbn [length]. lia.
Qed.

Theorem put_spec_before L put ln col eln ecol i d : ln <= length L -> i < ln ->
  nth i (put_spec L put ln col eln ecol) d = nth i L d.
Proof.
  intros Hl Hi. unfold put_spec. rewrite app_nth1 by (rewrite firstn_length_le; lia).
  now apply nth_firstn.
Qed.

Theorem put_spec_after L put ln col eln ecol k d : ln <= eln < length L -> eln < k -> put <> [] ->
  nth (k - (eln - ln) + (length put - 1)) (put_spec L put ln col eln ecol) d = nth k L d.
Proof.
  intros Hl Hk _. unfold put_spec.
  rewrite app_assoc, app_nth2; rewrite app_length, glue_length, firstn_length_le by lia; [|lia].
  rewrite nth_skipn. f_equal. lia.
Qed.

Theorem put_spec_length L put ln col eln ecol : ln <= eln < length L -> put <> [] ->
  length (put_spec L put ln col eln ecol) = length L - (eln - ln) + (length put - 1).
Proof.
  intros Hl _. unfold put_spec. rewrite !app_length, glue_length, firstn_length_le, skipn_length by lia. lia.
Qed.

Theorem put_spec_start_prefix L put ln col eln ecol : ln <= length L -> col <= length (lineAt L ln) ->
  firstn col (nth ln (put_spec L put ln col eln ecol) []) = firstn col (lineAt L ln).
Proof.
  intros Hl Hc. unfold put_spec. rewrite app_nth2; rewrite firstn_length_le by exact Hl; [|lia].
  rewrite Nat.sub_diag.
  destruct put as [|p [|q r]]; cbn [glue app nth]; apply firstn_app_exact, firstn_length_le, Hc.
Qed.

(* the new end line is  NEWPREFIX ++ (old end line from ecol on): text after the edit is kept verbatim *)
Definition new_prefix (L : pytext) (put : pytext) (ln col : nat) : pyline :=
  match put with
  | [] => firstn col (lineAt L ln)
  | [p] => firstn col (lineAt L ln) ++ p
  | _ => last put []
  end.

Theorem put_spec_end_line L put ln col eln ecol : ln <= length L ->
  nth (ln + (length put - 1)) (put_spec L put ln col eln ecol) []
  = new_prefix L put ln col ++ skipn ecol (lineAt L eln).
Proof.
  intros Hl. unfold put_spec. set (G := glue _ _ _).
  assert (HG : length put - 1 = length G - 1) by (unfold G; rewrite glue_length; lia).
  rewrite app_nth2; rewrite firstn_length_le by exact Hl; [|lia].
  rewrite Nat.add_comm, Nat.add_sub.
  rewrite app_nth1 by (unfold G in *; rewrite glue_length in *; lia).
  (* the line asked for is the last of the glued lines *)
  rewrite HG, nth_last. unfold G.
  destruct put as [|p [|q r]]; cbn [glue new_prefix].
  - reflexivity.
  - now rewrite app_assoc.
  - now rewrite app_comm_cons, last_last.
Qed.

(* byte view of a line: drop n BYTES (n on a character boundary) *)
Fixpoint bskip (n : nat) (l : pyline) : pyline :=
  match n, l with
  | 0, _ => l
  | _, [] => []
  | _, c :: r => bskip (n - u8w c) r
  end.

Lemma bskip_app x y k : bskip (blen_nat x + k) (x ++ y) = bskip k y.
Proof.
  induction x as [|c x IH]; [reflexivity|].
  cbn [blen_nat app]. pose proof (u8w_pos c).
  destruct (u8w c + blen_nat x + k) eqn:E; [lia|]. cbn [bskip]. rewrite <- E.
  replace (u8w c + blen_nat x + k - u8w c) with (blen_nat x + k) by lia. apply IH.
Qed.

(* Text after the edited region is reachable at the byte column the offset parameters predict:
   a byte column b >= (old end of region) on the old end line and b + dcol on the new end line see the same text. *)
Theorem end_line_suffix_bytes L put ln col eln ecol k : ln <= length L -> ecol <= length (lineAt L eln) ->
  bskip (blen_nat (new_prefix L put ln col) + k) (nth (ln + (length put - 1)) (put_spec L put ln col eln ecol) [])
  = bskip (c2b (lineAt L eln) ecol + k) (lineAt L eln).
Proof.
  intros Hl _. rewrite put_spec_end_line by exact Hl. rewrite bskip_app.
  unfold c2b. rewrite <- (firstn_skipn ecol (lineAt L eln)) at 3. now rewrite bskip_app.
Qed.
