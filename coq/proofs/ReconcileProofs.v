(* reconcile returns a tree structurally equal to the edited tree; without changes nothing is put and the marked tree
   (with all its formatting) is returned; an untouched in-place sub-tree keeps all its formatting whatever happens
   around it. *)
From Coq Require Import List Bool Arith Lia.
From PF Require Import models.Reconcile proofs.ListFacts.
Import ListNotations.

Section Ind.
  Variable P : rt -> Prop.
  Hypothesis H : forall i l k, Forall P k -> P (RT i l k).
  Fixpoint rt_ind' (t : rt) : P t :=
    let 'RT i l k := t in
    H i l k (Forall_all rt_ind' k).
End Ind.

Lemma shape_idem t : shape (shape t) = shape t.
Proof.
  induction t as [i l k IH] using rt_ind'. cbn [shape]. f_equal. rewrite map_map.
  apply map_ext_Forall, IH.
Qed.

Definition go_rec (M : rt) (ff' : bool) :=
  fix go (ws os : list rt) : list rt * nat :=
    match ws, os with
    | w' :: ws', o' :: os' =>
        let r1 := rec M w' o' ff' in
        let rs := go ws' os' in
        (fst r1 :: fst rs, snd r1 + snd rs)
    | _, _ => ([], 0)
    end.

(* the first step of rec: the out sub-tree that stands at the position before label and children are looked at, and the put it cost *)
Definition base_of (M : rt) (wid : option nat) (w o : rt) (ff : bool) : rt * nat :=
  match wid with
  | None => if ff then (unfmt w, 1) else (o, 0)
  | Some k => if ff && oid_eqb (rid o) (Some k) then (o, 0)
              else match lookup M k with Some m => (m, 1) | None => (unfmt w, 1) end
  end.

Lemma rec_unfold M wid wl wk o ff :
  rec M (RT wid wl wk) o ff =
    let b := base_of M wid (RT wid wl wk) o ff in
    if Nat.eqb (length (rkids (fst b))) (length wk) then
      let r := go_rec M (match rid (fst b) with Some _ => true | None => false end) wk (rkids (fst b)) in
      (RT (rid (fst b)) wl (fst r), (if Nat.eqb (rlabel (fst b)) wl then snd b else S (snd b)) + snd r)
    else (unfmt (RT wid wl wk), S (snd b)).
Proof. reflexivity. Qed.

Lemma go_shape M ff' ws : Forall (fun w => forall o ff, (ff = false -> shape o = shape w) -> shape (fst (rec M w o ff)) = shape w) ws ->
  forall os, length os = length ws -> (ff' = false -> map shape os = map shape ws) ->
  map shape (fst (go_rec M ff' ws os)) = map shape ws.
Proof.
  intros HF. induction HF as [|w ws Hw _ IH]; intros os Hl Hs; destruct os as [|o os]; simpl in *; try discriminate; [reflexivity|].
  f_equal.
  - apply Hw. intros Hf. specialize (Hs Hf). congruence.
  - apply IH; [lia|]. intros Hf. specialize (Hs Hf). congruence.
Qed.

Lemma oid_eqb_eq a b : oid_eqb a b = true -> a = b.
Proof. destruct a, b; simpl; try discriminate; [|reflexivity]. intros H. apply Nat.eqb_eq in H. congruence. Qed.

Lemma lookup_id M k : forall m, lookup M k = Some m -> rid m = Some k.
Proof.
  induction M as [i l ks IHM] using rt_ind'. intros m Hm. simpl in Hm.
  destruct (oid_eqb i (Some k)) eqn:Hi.
  - injection Hm as <-. exact (oid_eqb_eq _ _ Hi).
  - induction IHM as [|x r Hx _ IHr]; [discriminate|].
    destruct (lookup x k) as [t|] eqn:Hx'.
    + injection Hm as <-. apply Hx. reflexivity.
    + apply IHr. exact Hm.
Qed.

Lemma base_unformatted M wid w o ff :
  rid (fst (base_of M wid w o ff)) = None -> (ff = false -> shape o = shape w) -> shape (fst (base_of M wid w o ff)) = shape w.
Proof.
  unfold base_of. intros Hn Hpre. destruct wid as [k|].
  - destruct (ff && oid_eqb (rid o) (Some k)) eqn:Hin.
    + apply andb_true_iff in Hin. destruct Hin as [_ Hid]. apply oid_eqb_eq in Hid. simpl in Hn. congruence.
    + destruct (lookup M k) as [m|] eqn:Hm; [|apply shape_idem].
      simpl in Hn. rewrite (lookup_id M k m Hm) in Hn. discriminate.
  - destruct ff; [apply shape_idem|]. simpl. apply Hpre. reflexivity.
Qed.

(* ff = false: the parent was just put as plain AST of the edited parent, so the out sub-tree o at this position already
   has the edited shape - that is the only case in which a node without identity keeps o (the `(o, 0)` branch of rec). *)
Theorem rec_shape M w : forall o ff, (ff = false -> shape o = shape w) -> shape (fst (rec M w o ff)) = shape w.
Proof.
  induction w as [wid wl wk IH] using rt_ind'. intros o ff Hpre. rewrite rec_unfold. cbv zeta.
  set (base := base_of M wid (RT wid wl wk) o ff).
  destruct (Nat.eqb (length (rkids (fst base))) (length wk)) eqn:Hlen; [|apply shape_idem].
  apply Nat.eqb_eq in Hlen. cbn [fst shape]. f_equal.
  apply go_shape; [exact IH|exact Hlen|].
  intros Hff.
  assert (Hn : rid (fst base) = None) by (destruct (rid (fst base)); [discriminate|reflexivity]).
  pose proof (base_unformatted M wid (RT wid wl wk) o ff Hn Hpre) as Hb. fold base in Hb.
  destruct (fst base) as [bi bl bk]. simpl in Hb. injection Hb as _ Hk. exact Hk.
Qed.

Lemma go_same M ws : Forall (fun t => all_marked t = true -> rec M t t true = (t, 0)) ws ->
  forallb all_marked ws = true -> go_rec M true ws ws = (ws, 0).
Proof.
  intros HF. induction HF as [|w ws Hw _ IH]; intros Hm; [reflexivity|].
  simpl in Hm. apply andb_true_iff in Hm. destruct Hm as [Hm1 Hm2].
  simpl. rewrite (Hw Hm1), (IH Hm2). reflexivity.
Qed.

Theorem rec_unchanged M t : all_marked t = true -> rec M t t true = (t, 0).
Proof.
  induction t as [i l k IH] using rt_ind'. intros Hm. simpl in Hm.
  destruct i as [j|]; [|discriminate].
  rewrite rec_unfold. cbv zeta. cbn [base_of rid andb oid_eqb]. rewrite Nat.eqb_refl. cbn [fst snd rid rlabel rkids].
  rewrite !Nat.eqb_refl. rewrite (go_same M k IH Hm). reflexivity.
Qed.

Theorem untouched_child_kept M : forall ws os i t,
  nth_error ws i = Some t -> nth_error os i = Some t -> all_marked t = true ->
  nth_error (fst (go_rec M true ws os)) i = Some t.
Proof.
  induction ws as [|w ws IH]; intros os i t Hw Ho Hm; [destruct i; discriminate|].
  destruct os as [|o os]; [destruct i; discriminate|].
  destruct i as [|i]; simpl in *.
  - injection Hw as ->. injection Ho as ->. now rewrite (rec_unchanged M t Hm).
  - apply IH; assumption.
Qed.
