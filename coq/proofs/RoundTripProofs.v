(* Round trips at the tree layer: replacing the sub-tree at a path by itself, reading back what was written there,
   and the nodes on disjoint paths. (The same laws on the element list of one field are in ContainerProofs.) *)
From Coq Require Import List Arith.
Import ListNotations.

Inductive tree := T (label : nat) (kids : list tree).

Fixpoint subtree (p : list nat) (t : tree) : option tree :=
  match p with
  | [] => Some t
  | i :: p' => let 'T _ ks := t in match nth_error ks i with Some k => subtree p' k | None => None end
  end.

Fixpoint set_nth {A} (l : list A) (i : nat) (x : A) : list A :=
  match l, i with
  | [], _ => []
  | _ :: r, 0 => x :: r
  | a :: r, S i' => a :: set_nth r i' x
  end.

Fixpoint replace_at (p : list nat) (t new : tree) : tree :=
  match p with
  | [] => new
  | i :: p' => let 'T lb ks := t in
               match nth_error ks i with Some k => T lb (set_nth ks i (replace_at p' k new)) | None => t end
  end.

Lemma set_nth_same {A} (l : list A) i x : nth_error l i = Some x -> set_nth l i x = l.
Proof.
  revert i. induction l as [|a l IH]; intros [|i] H; simpl in *; try discriminate; [congruence|].
  rewrite IH by exact H. reflexivity.
Qed.

Lemma nth_set_nth {A} (l : list A) i j x :
  nth_error (set_nth l i x) j = if Nat.eqb i j then option_map (fun _ => x) (nth_error l j) else nth_error l j.
Proof.
  revert i j. induction l as [|a l IH]; intros [|i] [|j]; cbn [set_nth nth_error Nat.eqb option_map]; try reflexivity.
  - now destruct (Nat.eqb _ _).
  - apply IH.
Qed.

Lemma replace_by_self p : forall t k, subtree p t = Some k -> replace_at p t k = t.
Proof.
  induction p as [|i p IH]; intros [lb ks] k H; simpl in *; [congruence|].
  destruct (nth_error ks i) as [c|] eqn:Hn; [|discriminate].
  rewrite (IH c k H), set_nth_same by exact Hn. reflexivity.
Qed.

Lemma subtree_after_replace p : forall t k new, subtree p t = Some k -> subtree p (replace_at p t new) = Some new.
Proof.
  induction p as [|i p IH]; intros [lb ks] k new H; simpl in *; [reflexivity|].
  destruct (nth_error ks i) as [c|] eqn:Hn; [|discriminate].
  rewrite nth_set_nth, Nat.eqb_refl, Hn. cbn [option_map]. eapply IH. exact H.
Qed.

Fixpoint is_prefix (p q : list nat) : bool :=
  match p, q with
  | [], _ => true
  | a :: p', b :: q' => Nat.eqb a b && is_prefix p' q'
  | _, [] => false
  end.

Lemma subtree_disjoint p : forall q t new,
  is_prefix p q = false -> is_prefix q p = false -> subtree q (replace_at p t new) = subtree q t.
Proof.
  induction p as [|i p IH]; intros q [lb ks] new Hpq Hqp; [discriminate|].
  destruct q as [|j q]; [discriminate|]. simpl in *.
  destruct (nth_error ks i) as [c|] eqn:Hn; [|reflexivity].
  rewrite nth_set_nth. destruct (Nat.eqb_spec i j) as [<-|Hij]; [|reflexivity].
  rewrite Nat.eqb_refl in Hqp. rewrite Hn. simpl in *. apply IH; assumption.
Qed.
