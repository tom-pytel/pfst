(* C04: decision rules of the trivia option reader. *)
From PF Require Import models.TriviaParams.

Theorem bool_is_default_or_none dflt neg b :
  side dflt neg (PBool b) = side dflt neg (PStr (Some (if b then dflt else KNone)) XNone).
Proof. destruct b; reflexivity. Qed.

(* a negative space suffix deletes nothing unless asked for (neg): count 0, flagged *)
Theorem minus_without_neg dflt k n : side dflt false (PStr k (XMinus n)) = (CKind (match k with Some k => k | None => dflt end), SpN 0, true).
Proof. reflexivity. Qed.

Example params_nonvacuous :
  params false (OPair (PBool false) (PStr None (XPlus (Some 1)))) = ((CKind KNone, SpFalse, false), (CKind KLine, SpN 1, false)) /\
  params true (OOne (PStr (Some KAll) (XMinus None))) = ((CKind KAll, SpTrue, true), (CKind KLine, SpFalse, false)).
Proof. split; reflexivity. Qed.
