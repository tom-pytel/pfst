(* C03: the keyword-index -> merged-index mapping is right exactly where the guard of keyword edits lets the edit through;
   the guard of args / bases edits passes exactly when everything touched lies in front of the first keyword. *)
From Coq Require Import List Arith Lia.
From PF Require Import models.Arglikes proofs.ListFacts.
Import ListNotations.

Lemma count_a_cons t l : count_a (t :: l) = (if is_a t then 1 else 0) + count_a l.
Proof. unfold count_a. cbn [filter]. destruct (is_a t); cbn; lia. Qed.

Lemma count_k_cons t l : count_k (t :: l) = (if is_k t then 1 else 0) + count_k l.
Proof. unfold count_k. cbn [filter]. destruct (is_k t); cbn; lia. Qed.

Lemma kw_pos_spec : forall l i,
  match kw_pos l i with
  | Some p => p <= length l /\ p = i + count_a (firstn p l) /\ count_k (firstn p l) = i
  | None => count_k l < i
  end.
Proof.
  induction l as [|[] l IH]; intros i; cbn [kw_pos].
  - destruct i; cbn; lia.
  - specialize (IH i).
    destruct (kw_pos l i); cbn [option_map firstn length is_k]; rewrite ?count_a_cons, ?count_k_cons; cbn [is_a is_k]; lia.
  - destruct i as [|j]; [cbn; lia|]. specialize (IH j).
    destruct (kw_pos l j); cbn [option_map firstn length is_k]; rewrite ?count_a_cons, ?count_k_cons; cbn [is_a is_k]; lia.
Qed.

Lemma kw_pos_defined l i : i <= count_k l -> exists p, kw_pos l i = Some p.
Proof. intros Hi. pose proof (kw_pos_spec l i). destruct (kw_pos l i); [eauto|lia]. Qed.

Lemma count_a_app l1 l2 : count_a (l1 ++ l2) = count_a l1 + count_a l2.
Proof. unfold count_a. rewrite filter_app, app_length. reflexivity. Qed.

Lemma existsb_is_a_false l : existsb is_a l = false <-> count_a l = 0.
Proof.
  induction l as [|t l IH]; cbn [existsb]; [unfold count_a; cbn; tauto|].
  rewrite count_a_cons. destruct t; cbn [is_a orb].
  - split; [discriminate|lia].
  - rewrite IH. lia.
Qed.

Theorem mapping_right_iff_no_argument_behind l i p :
  kw_pos l i = Some p -> (mapped l i = p <-> arg_after l p = false).
Proof.
  intros E. pose proof (kw_pos_spec l i) as H. rewrite E in H.
  unfold mapped, arg_after. rewrite existsb_is_a_false.
  pose proof (count_a_app (firstn p l) (skipn p l)) as C. rewrite firstn_skipn in C. lia.
Qed.

Theorem append_always_right l : kw_pos l (count_k l) = Some (length l) /\ mapped l (count_k l) = length l.
Proof.
  split.
  - induction l as [|t l IH]; [reflexivity|]. rewrite count_k_cons. destruct t; cbn [is_k kw_pos Nat.add]; rewrite IH; reflexivity.
  - unfold mapped, count_a, count_k. induction l as [|t l IH]; [reflexivity|]. destruct t; cbn; lia.
Qed.

(* the guard lets an edit at keyword index i through  <->  the merged index the code computes is the position of that keyword *)
Theorem guard_passes_iff_mapping_right l i : i <= count_k l ->
  (guard_refuses l i = false <-> kw_pos l i = Some (mapped l i)).
Proof.
  intros Hi. destruct (kw_pos_defined l i Hi) as (p & E). unfold guard_refuses. rewrite E.
  destruct (Nat.ltb_spec i (count_k l)) as [L|L]; cbn [andb].
  - rewrite <- (mapping_right_iff_no_argument_behind l i p E). split; congruence.
  - (* the end position: the guard does not look, and need not *)
    assert (i = count_k l) by lia. subst i. destruct (append_always_right l) as [P Q].
    split; [congruence|reflexivity].
Qed.

Lemma kw_pos_mono : forall l i j p q, kw_pos l i = Some p -> kw_pos l j = Some q -> i <= j -> p <= q.
Proof.
  induction l as [|[] l IH]; intros i j p q Hi Hj Hij; cbn [kw_pos] in *.
  - destruct i, j; inversion Hi; inversion Hj; lia.
  - destruct (kw_pos l i) eqn:Ei, (kw_pos l j) eqn:Ej; inversion Hi; inversion Hj.
    specialize (IH _ _ _ _ Ei Ej Hij). lia.
  - destruct i as [|i], j as [|j]; try lia; try (inversion Hi; lia).
    destruct (kw_pos l i) eqn:Ei, (kw_pos l j) eqn:Ej; inversion Hi; inversion Hj.
    specialize (IH _ _ _ _ Ei Ej ltac:(lia)). lia.
Qed.

Lemma arg_after_mono l p q : p <= q -> arg_after l p = false -> arg_after l q = false.
Proof.
  unfold arg_after. rewrite !existsb_is_a_false. intros H E.
  replace q with (q - p + p) by lia. rewrite <- skipn_skipn.
  rewrite <- (firstn_skipn (q - p) (skipn p l)), count_a_app in E. lia.
Qed.

(* once keyword i lies behind every positional argument, so do all later keywords: the slice [i, j) of keywords is the
   contiguous merged slice [i + n, j + n) *)
Theorem later_keywords_contiguous l i j : i <= j <= count_k l -> guard_refuses l i = false ->
  kw_pos l j = Some (mapped l j).
Proof.
  intros Hij G.
  destruct (kw_pos_defined l i ltac:(lia)) as (p & Ei).
  destruct (kw_pos_defined l j ltac:(lia)) as (q & Ej).
  apply guard_passes_iff_mapping_right in G as Mi; [|lia]. rewrite Ei in Mi. injection Mi as Mi.
  rewrite Ej. f_equal. symmetry.
  (* no argument behind keyword i, hence none behind the later keyword j *)
  apply (mapping_right_iff_no_argument_behind l j q Ej).
  apply (arg_after_mono l p q (kw_pos_mono l i j p q Ei Ej (proj1 Hij))).
  now apply (mapping_right_iff_no_argument_behind l i p Ei).
Qed.

Example arglikes_nonvacuous :
  let l := [A; K; A; K] in                       (* f(a, k=1, *b, j=3) *)
  kw_pos l 0 = Some 1 /\ mapped l 0 = 2 /\ guard_refuses l 0 = true /\
  kw_pos l 1 = Some 3 /\ mapped l 1 = 3 /\ guard_refuses l 1 = false /\ guard_refuses l 2 = false.
Proof. repeat split; reflexivity. Qed.

(* the i-th argument exists when i < count_a l, and lies behind the first keyword exactly when it is not among the leading ones *)
Lemma arg_pos_behind : forall l i,
  match arg_pos l i with Some p => Nat.ltb (lead_a l) p = Nat.leb (lead_a l) i | None => count_a l <= i end.
Proof.
  induction l as [|[] l IH]; intros i; cbn [arg_pos lead_a]; rewrite ?count_a_cons; cbn [is_a].
  - cbn. lia.
  - destruct i as [|j]; [reflexivity|]. specialize (IH j). destruct (arg_pos l j); cbn [option_map]; [exact IH|lia].
  - specialize (IH i). destruct (arg_pos l i); cbn [option_map]; [reflexivity|lia].
Qed.

Lemma behind_eq l i : i < count_a l -> behind_first_kw l i = Nat.leb (lead_a l) i.
Proof.
  intros Hi. unfold behind_first_kw. pose proof (arg_pos_behind l i) as S. destruct (arg_pos l i); [exact S|lia].
Qed.

(* ZifyBool lets lia read boolean connectives; required only here, since with it every lia also translates the
   boolean hypotheses of its context *)
From Coq Require Import ZifyBool.

(* the guard lets an edit of args[start:stop] through  <->  everything it touches lies in front of the first keyword:
   all of args[:stop], and for a pure insertion in front of an existing argument that argument too *)
Theorem args_guard_passes_iff_in_front_of_keywords l start stop has_code :
  stop <= count_a l -> 0 < count_k l ->
  (args_guard_refuses l start stop has_code = false <->
   stop <= lead_a l /\ (has_code = true -> start = stop -> stop < count_a l -> stop < lead_a l)).
Proof.
  intros Hs Hk. unfold args_guard_refuses.
  (* with the two tests read as comparisons with lead_a the rest is propositional and linear *)
  pose proof (behind_eq l (stop - 1)) as B1. pose proof (behind_eq l stop) as B2.
  lia.
Qed.

(* ... and then the argument indices of the slice are its merged indices: the edit of `args` is the same edit of the merged list *)
Theorem args_in_front_are_merged_prefix l i : i < lead_a l -> arg_pos l i = Some i /\ nth_error l i = Some A.
Proof.
  revert i. induction l as [|[] l IH]; intros [|i] H; cbn [lead_a] in H; try lia; [now split|].
  destruct (IH i ltac:(lia)) as [E N]. cbn [arg_pos nth_error]. now rewrite E.
Qed.

Example args_guard_nonvacuous :
  let l := [A; K; A] in                          (* f(a, k=1, *b) *)
  lead_a l = 1 /\ args_guard_refuses l 0 0 true = false /\ args_guard_refuses l 0 1 true = false /\ args_guard_refuses l 1 1 true = true /\
  args_guard_refuses l 1 2 false = true /\ args_guard_refuses l 2 2 true = true /\ args_guard_refuses [A; A] 1 2 true = false.
Proof. repeat split; reflexivity. Qed.
