(* Laws of the list splice put_slice_spec (kernel/Container.v): what it leaves alone, what is read back from it, and how it
   acts on a list given in parts. kernel.Text.set_range is the same function, so TextProofs uses these laws on line lists. *)
From Coq Require Import ZArith List Lia.
From PF Require Import kernel.Container proofs.ListFacts.
Import ListNotations.

Section P.
  Context {A : Type}.
  Implicit Types old new win pre mid post : list A.

  Lemma splice_app pre mid post s e new : length pre = s -> s + length mid = e ->
    put_slice_spec (pre ++ mid ++ post) s e new = pre ++ new ++ post.
  Proof.
    intros Hs He. unfold put_slice_spec.
    rewrite firstn_app_exact by exact Hs.
    rewrite (app_assoc pre mid), skipn_app_exact; [reflexivity|].
    rewrite app_length. lia.
  Qed.

  Lemma put_slice_length old s e new : s <= e <= length old ->
    length (put_slice_spec old s e new) = length old - (e - s) + length new.
  Proof.
    intros H. unfold put_slice_spec. rewrite !app_length, firstn_length, skipn_length. lia.
  Qed.

  Lemma put_slice_nth_before old s e new i : i < s -> s <= length old ->
    nth_error (put_slice_spec old s e new) i = nth_error old i.
  Proof.
    intros Hi Hs. unfold put_slice_spec.
    rewrite nth_error_app1 by (rewrite firstn_length; lia).
    now apply nth_error_firstn.
  Qed.

  Lemma put_slice_nth_mid old s e new i : s <= length old -> i < length new ->
    nth_error (put_slice_spec old s e new) (s + i) = nth_error new i.
  Proof.
    intros Hs Hi. rewrite <- nth_error_skipn. unfold put_slice_spec.
    rewrite skipn_app_exact by now apply firstn_length_le. now apply nth_error_app1.
  Qed.

  Lemma put_slice_firstn old s e new : s <= length old -> firstn s (put_slice_spec old s e new) = firstn s old.
  Proof. intros Hs. apply firstn_app_exact, firstn_length_le, Hs. Qed.

  Lemma put_slice_skipn old s e new : s <= length old ->
    skipn (s + length new) (put_slice_spec old s e new) = skipn e old.
  Proof.
    intros Hs. unfold put_slice_spec. rewrite app_assoc. apply skipn_app_exact.
    now rewrite app_length, firstn_length_le.
  Qed.

  Lemma put_slice_nth_after old s e new i : s <= length old ->
    nth_error (put_slice_spec old s e new) (s + length new + i) = nth_error old (e + i).
  Proof. intros Hs. now rewrite <- !nth_error_skipn, put_slice_skipn. Qed.

  Lemma put_slice_all old new : put_slice_spec old 0 (length old) new = new.
  Proof. unfold put_slice_spec. rewrite skipn_all. apply app_nil_r. Qed.

  Lemma get_put_slice old s e new : s <= length old ->
    get_slice_spec (put_slice_spec old s e new) s (s + length new) = new.
  Proof.
    intros Hs. unfold get_slice_spec, put_slice_spec.
    rewrite skipn_app_exact by (apply firstn_length_le, Hs).
    rewrite Nat.add_comm, Nat.add_sub. now apply firstn_app_exact.
  Qed.

  Lemma put_get_id old s e : s <= e ->
    put_slice_spec old s e (get_slice_spec old s e) = old.
  Proof. intros H. symmetry. now apply split_range. Qed.

  Lemma del_put_back old s e : s <= e ->
    put_slice_spec (del_slice_spec old s e) s s (get_slice_spec old s e) = old.
  Proof.
    intros H. unfold del_slice_spec, put_slice_spec at 2.
    destruct (le_lt_dec s (length old)) as [Hs|Hs].
    - rewrite (splice_app (firstn s old) [] (skipn e old) s s)
        by (rewrite ?firstn_length_le, ?Nat.add_0_r; auto).
      now apply put_get_id.
    - unfold put_slice_spec, get_slice_spec.
      rewrite (firstn_all2 old), (skipn_all2 old (n := e)), (skipn_all2 old (n := s)) by lia.
      cbn [app]. rewrite app_nil_r, firstn_nil, firstn_all2, skipn_all2 by lia.
      apply app_nil_r.
  Qed.

  Lemma cut_put_back old s e : s <= e <= length old ->
    put_slice_spec (del_slice_spec old s e) s s (get_slice_spec old s e) = old.
  Proof. intros [H _]. now apply del_put_back. Qed.

  (* a put through a window [|pre|, |pre|+|win|) of the field is the same put on the window alone *)
  Lemma window_put pre win post i0 i1 new : i0 <= i1 <= length win ->
    put_slice_spec (pre ++ win ++ post) (length pre + i0) (length pre + i1) new
    = pre ++ put_slice_spec win i0 i1 new ++ post.
  Proof.
    intros H. unfold put_slice_spec.
    rewrite firstn_app_2, firstn_app_le, (Nat.add_comm _ i1), <- skipn_skipn, skipn_app_exact, skipn_app by (reflexivity || lia).
    replace (i1 - length win) with 0 by lia. now rewrite <- !app_assoc.
  Qed.

  (* the convenience forms mean what Python's list methods mean *)
  Lemma insert_spec_eq old i x : insert_spec old i x = firstn i old ++ x :: skipn i old.
  Proof. reflexivity. Qed.
  Lemma append_spec_eq old x : append_spec old x = old ++ [x].
  Proof. unfold append_spec, put_slice_spec. now rewrite firstn_all, skipn_all. Qed.
  Lemma extend_spec_eq old xs : extend_spec old xs = old ++ xs.
  Proof. unfold extend_spec, put_slice_spec. now rewrite firstn_all, skipn_all, app_nil_r. Qed.
  Lemma remove_spec_eq old i : remove_spec old i = firstn i old ++ skipn (S i) old.
  Proof. reflexivity. Qed.
  Lemma replace_spec_eq old i x : replace_spec old i x = firstn i old ++ x :: skipn (S i) old.
  Proof. reflexivity. Qed.
  Lemma replace_spec_length old i x : i < length old -> length (replace_spec old i x) = length old.
  Proof. intros H. unfold replace_spec. rewrite put_slice_length by lia. cbn [length]. lia. Qed.

  (* Python's  l[a:b] = new  for in-order bounds is put_slice_spec at the clamped bounds *)
  Lemma py_setslice_ordered old a b new :
    (py_clamp (Z.of_nat (length old)) a <= py_clamp (Z.of_nat (length old)) b)%Z ->
    py_setslice old a b new =
      put_slice_spec old (Z.to_nat (py_clamp (Z.of_nat (length old)) a))
                         (Z.to_nat (py_clamp (Z.of_nat (length old)) b)) new.
  Proof. intros H. unfold py_setslice. cbv zeta. now rewrite (Z.max_r _ _ H). Qed.

  Lemma py_clamp_range len a : (0 <= len)%Z -> (0 <= py_clamp len a <= len)%Z.
  Proof. intros H. unfold py_clamp. destruct (a <? 0)%Z eqn:E; lia. Qed.
End P.
