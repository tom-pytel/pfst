(* Wrapper geometry: the fragment's characters and spans are found below the prefix lines of the embedding, so moving the
   parse result up by that many lines makes every node denote the same text in the fragment; the delimiter guard accepts
   exactly the fragments that leave the wrapper's own delimiter open until the wrapper closes it. *)
From Coq Require Import List ZArith Lia.
From PF Require Import kernel.Text models.Extract models.Wrap proofs.ListFacts.

(* wrap pre post L is wrapn [pre] post L, so the geometry is stated for any number of prefix lines *)
Lemma lineAt_wrapn pres post L k : k < length L -> lineAt (wrapn pres post L) (length pres + k) = lineAt L k.
Proof. intros H. unfold lineAt, wrapn. rewrite app_nth2_plus. now apply app_nth1. Qed.

Theorem wrapn_char pres post L p :
  length pres <= fst p < length pres + length L ->
  char_at (wrapn pres post L) p = char_at L (unwrapn_pos (length pres) p).
Proof.
  intros H. unfold char_at, unwrapn_pos. cbn [fst snd].
  replace (fst p) with (length pres + (fst p - length pres)) at 1 by lia.
  now rewrite lineAt_wrapn by lia.
Qed.

Theorem wrapn_span pres post L ln col eln ecol :
  ln <= eln < length L ->
  get_src (wrapn pres post L) (length pres + ln) col (length pres + eln) ecol = get_src L ln col eln ecol.
Proof.
  intros H. unfold get_src. rewrite !lineAt_wrapn by lia.
  destruct (Nat.eqb_spec eln ln) as [->|Hn]; [now rewrite Nat.eqb_refl|].
  destruct (Nat.eqb_spec (length pres + eln) (length pres + ln)); [lia|]. do 2 f_equal.
  replace (length pres + eln - (length pres + ln)) with (eln - ln) by lia.
  rewrite <- Nat.add_succ_r. apply skipn_firstn_app. lia.
Qed.

(* the guard: each character changes the count by delta, and the loop stops where the count would go below 0 *)
Definition delta (x : dch) : Z := match x with DOpen => 1 | DClose => -1 | DOther => 0 end.

Lemma depth_cons x s : depth (x :: s) = (delta x + depth s)%Z.
Proof. destruct x; reflexivity. Qed.

Lemma guard_cons c x s :
  guard c (x :: s) = if (Z.of_nat c + delta x <? 0)%Z then None else guard (Z.to_nat (Z.of_nat c + delta x)) s.
Proof.
  destruct (Z.ltb_spec (Z.of_nat c + delta x) 0); destruct x, c; cbn [guard delta] in *; try lia; f_equal; lia.
Qed.

Lemma closer_index_cons lvl x w :
  closer_index lvl (x :: w) =
  if (Z.of_nat lvl + delta x <? 0)%Z then Some 0 else option_map S (closer_index (Z.to_nat (Z.of_nat lvl + delta x)) w).
Proof.
  destruct (Z.ltb_spec (Z.of_nat lvl + delta x) 0); destruct x, lvl; cbn [closer_index delta] in *; try lia;
    do 2 f_equal; lia.
Qed.

Definition stays_open (c : Z) (s : list dch) : Prop := forall k, k <= length s -> (0 <= c + depth (firstn k s))%Z.

Lemma stays_open_cons c x s : stays_open c (x :: s) <-> (0 <= c)%Z /\ stays_open (c + delta x) s.
Proof.
  unfold stays_open. split.
  - intros H. split.
    + specialize (H 0 (Nat.le_0_l _)). cbn in H. lia.
    + intros k Hk. specialize (H (S k)). cbn [firstn length] in H. rewrite depth_cons in H. lia.
  - intros [H0 H] [|k] Hk; cbn [firstn]; [cbn; lia|].
    rewrite depth_cons. cbn [length] in Hk. specialize (H k). lia.
Qed.

Lemma guard_some_iff s : forall c, (exists n, guard c s = Some n) <-> stays_open (Z.of_nat c) s.
Proof.
  induction s as [|x s IH]; intros c.
  - split; [intros _ k _; rewrite firstn_nil; cbn; lia|intros _; now exists c].
  - rewrite guard_cons, stays_open_cons. destruct (Z.ltb_spec (Z.of_nat c + delta x) 0) as [Hneg|Hpos].
    + split; [intros [n H]; discriminate|]. intros [_ H]. specialize (H 0). cbn in H. lia.
    + rewrite IH, Z2Nat.id by exact Hpos. split; [split; [lia|assumption]|now intros [_ H]].
Qed.

(* where an opener seen before s ++ rest is closed, when nothing in s closes it: after s, at the level s leaves *)
Lemma closer_index_app s : forall lvl rest, stays_open (Z.of_nat lvl) s ->
  closer_index lvl (s ++ rest) = option_map (Nat.add (length s)) (closer_index (Z.to_nat (Z.of_nat lvl + depth s)) rest).
Proof.
  induction s as [|x s IH]; intros lvl rest H.
  - cbn. rewrite Z.add_0_r, Nat2Z.id. now destruct (closer_index lvl rest).
  - apply stays_open_cons in H. destruct H as [_ H]. pose proof (H 0 ltac:(lia)) as H0. cbn in H0.
    cbn [app]. rewrite closer_index_cons, depth_cons.
    destruct (Z.ltb_spec (Z.of_nat lvl + delta x) 0) as [Hneg|Hpos]; [lia|].
    rewrite IH by (now rewrite Z2Nat.id).
    rewrite Z2Nat.id, Z.add_assoc by exact Hpos.
    now destruct (closer_index _ rest).
Qed.

Lemma refused_closes s : forall lvl rest,
  guard lvl s = None -> exists i, i < length s /\ closer_index lvl (s ++ rest) = Some i.
Proof.
  induction s as [|x s IH]; intros lvl rest H; [discriminate|].
  cbn [app]. rewrite guard_cons in H. rewrite closer_index_cons.
  destruct (_ <? 0)%Z.
  - exists 0. cbn. split; [lia|reflexivity].
  - destruct (IH _ rest H) as (i & Hi & ->). exists (S i). cbn. split; [lia|reflexivity].
Qed.
