(* C18: the counts subn() reports are the substitutions it performed, for every count / loop / callback setting. *)
From Coq Require Import List ZArith Lia.
From PF Require Import models.SubLoop.
Import ListNotations.
Local Open Scope Z_scope.

Lemma nonzero_cons d l : nonzero (d :: l) = ((if Nat.eqb d 0 then 0 else 1) + nonzero l)%nat.
Proof. unfold nonzero. cbn [filter]. now destruct (Nat.eqb d 0). Qed.

Lemma sum_cons d l : sum (d :: l) = (d + sum l)%nat.
Proof. reflexivity. Qed.

Lemma nonzero_le_sum l : (nonzero l <= sum l)%nat.
Proof.
  induction l as [|x l IH]; [reflexivity|]. rewrite nonzero_cons, sum_cons.
  destruct (Nat.eqb_spec x 0); lia.
Qed.

(* what `loop` allows one location: False one substitution, N > 0 at most N, True (stored as 0) any number *)
Definition allowance (l : loopv) (d : nat) : Prop :=
  match l with
  | None => (d <= 1)%nat
  | Some z => z > 0 -> (Z.of_nat d <= z)
  end.

(* only the number of substitutions done matters below, not what is left of the callback's answers *)
Lemma rounds_fst_bounds : forall fuel done l cbs, let d := fst (rounds fuel done l cbs) in
    (done <= d <= done + fuel)%nat /\
    match l with None => (d <= S done)%nat | Some z => z > 0 -> Z.of_nat d <= Z.of_nat done + z end.
Proof.
  induction fuel as [|f IH]; intros done l cbs; cbn [rounds]; destruct (next_cb cbs) as [[|] cbs']; cbn [fst].
  1-3: split; [lia|destruct l; lia].
  destruct l as [z|]; [|cbn [fst]; lia].
  destruct (Z.eqb_spec (z - 1) 0); [cbn [fst]; lia|]. destruct f; [cbn [fst]; lia|].
  specialize (IH (S done) (Some (z - 1)) cbs'). cbn [fst] in IH. lia.
Qed.

Lemma rounds_fst_allowance avail l cbs : let d := fst (rounds avail 0 l cbs) in (d <= avail)%nat /\ allowance l d.
Proof. destruct (rounds_fst_bounds avail 0 l cbs) as [H1 H2]. split; [lia|exact H2]. Qed.

Lemma rounds_no_callback avail l d c : (1 <= avail)%nat -> rounds avail 0 l [] = (d, c) -> (1 <= d)%nat.
Proof.
  intros Ha H. destruct avail as [|f]; [lia|]. cbn in H.
  destruct l as [z|].
  - destruct (z - 1 =? 0).
    + inversion H; lia.
    + destruct f; [inversion H; lia|]. pose proof (rounds_fst_bounds (S f) 1 (Some (z - 1)) []) as B. rewrite H in B. cbn [fst] in B. lia.
  - inversion H; lia.
Qed.

(* What a run from s to s' over locs has done, ds being what each visited location took: the record grows by ds, the total
   by its sum, the count falls by one for every location that took something and is never driven below 0 from above, and
   every location took at most what it could and at most the loop allowance - the SAME allowance l0 at every location. *)
Definition run_post (l0 : loopv) (locs : list nat) (s s' : st) (ds : list nat) : Prop :=
  per_loc s' = per_loc s ++ ds /\ total s' = (total s + sum ds)%nat /\ count s' = count s - Z.of_nat (nonzero ds) /\
  (0 < count s -> 0 <= count s') /\ (length ds <= length locs)%nat /\
  Forall2 (fun d avail => (d <= avail)%nat /\ allowance l0 d) ds (firstn (length ds) locs).

(* one more location in front of a run that goes on *)
Lemma run_post_cons l0 avail rest s s1 s' d ds :
  (d <= avail)%nat /\ allowance l0 d ->
  per_loc s1 = per_loc s ++ [d] -> total s1 = (total s + d)%nat -> count s1 = count s - (if Nat.eqb d 0 then 0 else 1) ->
  (0 < count s -> 0 < count s1) ->
  run_post l0 rest s1 s' ds -> run_post l0 (avail :: rest) s s' (d :: ds).
Proof.
  intros Hb E1 E2 E3 E4 (H1 & H2 & H3 & H4 & H5 & H6). unfold run_post.
  rewrite H1, H2, H3, E1, E2, E3, <- app_assoc, nonzero_cons, sum_cons. cbn [length firstn app].
  split; [reflexivity|]. split; [lia|]. split; [destruct (Nat.eqb d 0); lia|].
  split; [intros G; specialize (H4 (E4 G)); destruct (Nat.eqb d 0); lia|]. split; [lia|]. now constructor.
Qed.

Lemma locs_run_spec l0 : forall locs s, exists ds, run_post l0 locs s (locs_run locs l0 s) ds.
Proof.
  induction locs as [|avail rest IH]; intros s; cbn [locs_run].
  - exists []. unfold run_post. rewrite app_nil_r, Nat.add_0_r, Z.sub_0_r.
    split; [reflexivity|]. split; [reflexivity|]. split; [reflexivity|]. split; [lia|]. split; [reflexivity|constructor].
  - pose proof (rounds_fst_allowance avail l0 (cbs_left s)) as Hr.
    destruct (rounds avail 0 l0 (cbs_left s)) as [d cbs']. cbn [fst] in Hr.
    destruct d as [|d'].
    + (* nothing substituted here: the count stays *)
      edestruct IH as [ds H]. exists (0%nat :: ds). eapply run_post_cons. 6: exact H.
      all: cbn [count total per_loc Nat.eqb]; first [exact Hr | reflexivity | lia].
    + cbn [count total per_loc cbs_left]. destruct (Z.eqb_spec (count s - 1) 0) as [E|E].
      * (* the count limit is reached: the run stops here *)
        exists [S d']. unfold run_post. cbn [count total per_loc length firstn].
        split; [reflexivity|]. split; [cbn; lia|]. split; [cbn; lia|]. split; [lia|]. split; [lia|].
        constructor; [exact Hr|constructor].
      * edestruct IH as [ds H]. exists (S d' :: ds). eapply run_post_cons. 6: exact H.
        all: cbn [count total per_loc Nat.eqb]; first [exact Hr | reflexivity | lia].
Qed.

Theorem counts_are_substitutions l0 count0 : 0 <= count0 -> forall locs cbs,
  let s := locs_run locs l0 (init count0 cbs) in
  subn_counts locs l0 count0 cbs = (Z.of_nat (nonzero (per_loc s)), sum (per_loc s)).
Proof.
  intros Hc0 locs cbs. cbn zeta. unfold subn_counts, reported.
  destruct (locs_run_spec l0 locs (init count0 cbs)) as (ds & -> & -> & -> & Hpos & _).
  cbn [init count total per_loc app Nat.add] in *. f_equal.
  destruct (Z.ltb_spec (count0 - Z.of_nat (nonzero ds)) 0); lia.
Qed.

Theorem count_limit_respected locs l0 count0 cbs : 0 < count0 -> fst (subn_counts locs l0 count0 cbs) <= count0.
Proof.
  intros H. unfold subn_counts, reported. cbn [fst].
  destruct (locs_run_spec l0 locs (init count0 cbs)) as (ds & _ & _ & -> & Hpos & _). cbn [init count] in *.
  destruct (Z.ltb_spec (count0 - Z.of_nat (nonzero ds)) 0); lia.
Qed.

Theorem unique_le_total locs l0 count0 cbs : 0 <= count0 ->
  fst (subn_counts locs l0 count0 cbs) <= Z.of_nat (snd (subn_counts locs l0 count0 cbs)).
Proof.
  intros H. rewrite (counts_are_substitutions l0 count0 H locs cbs). cbn [fst snd].
  apply inj_le, nonzero_le_sum.
Qed.

Example loop_nonvacuous :
  subn_counts [2; 5]%nat (Some 3) 0 [] = (2, 5%nat) /\                         (* ([a,b,c], [p,q,r,s,t,u]) loop=3 *)
  subn_counts [3]%nat (Some 0) 0 [false; true] = (1, 1%nat) /\                  (* loop=True, the callback declines the second round: counted *)
  subn_counts [3; 3]%nat (Some 3) 0 [false; true] = (2, 4%nat) /\               (* the allowance is whole again at the second location *)
  subn_counts [2; 5]%nat (Some 3) 1 [] = (1, 2%nat) /\
  subn_counts [1; 1]%nat None 0 [true] = (1, 1%nat).
Proof. repeat split; reflexivity. Qed.

(* the clamp at the entry, `if count < 0: count = 0` *)
Lemma entry_count_nonneg count : 0 <= (if count <? 0 then 0 else count).
Proof. destruct (Z.ltb_spec count 0); lia. Qed.

Example entry_nonvacuous :
  subn_entry [2; 5]%nat (Some 3) (-1) [] = (2, 5%nat) /\ subn_entry [2; 5]%nat (Some 3) (-7) [] = subn_entry [2; 5]%nat (Some 3) 0 [] /\ subn_entry [1; 1; 1]%nat None (-2) [] = (3, 3%nat).
Proof. repeat split; reflexivity. Qed.
