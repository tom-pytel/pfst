(* C17 theorems over models/Match.v: the search pre-filter, and the list matcher as the flat case of proofs/MatchNestedProofs.v *)
From Coq Require Import List Bool Arith.
From PF Require Import models.Match proofs.MatchNestedProofs proofs.ListFacts.
Import ListNotations.

Section PatInd.
  Variable P : pat -> Prop.
  Hypothesis HAny : P PAny.
  Hypothesis HT : forall ks, P (PType ks).
  Hypothesis HN : forall ks e, P (PNode ks e).
  Hypothesis HU : forall f, P (PUnknown f).
  Hypothesis HP : P PPrim.
  Hypothesis HOr : forall l, Forall P l -> P (POr l).
  Hypothesis HAnd : forall l, Forall P l -> P (PAnd l).
  Hypothesis HNot : forall p, P p -> P (PNot p).
  Fixpoint pat_ind' (p : pat) : P p :=
    match p with
    | PAny => HAny | PType ks => HT ks | PNode ks e => HN ks e | PUnknown f => HU f | PPrim => HP
    | POr l => HOr l (Forall_all pat_ind' l) | PAnd l => HAnd l (Forall_all pat_ind' l)
    | PNot q => HNot q (pat_ind' q)
    end.
End PatInd.

Theorem prefilter_sound p : forall n, pmatch p n = true -> prefilter p n = true.
Proof.
  unfold prefilter.
  induction p as [|ks|ks e|f| |l IH|l IH|q IH] using pat_ind'; intros n H; cbn [leaf pmatch] in *.
  - reflexivity.
  - exact H.
  - now apply andb_prop in H.
  - reflexivity.
  - discriminate.
  - revert H. induction IH as [|x l Hx _ IHl]; cbn [existsb fold_right]; intros H; [discriminate|].
    destruct (leaf x) as [a|]; [|reflexivity].
    destruct (fold_right _ _ l) as [b|]; [|reflexivity].
    apply orb_prop in H. destruct H as [H|H].
    + now rewrite (Hx n H).
    + rewrite (IHl H). apply orb_true_r.
  - revert H. induction IH as [|x l Hx _ IHl]; cbn [forallb fold_right]; intros H; [reflexivity|].
    apply andb_prop in H. destruct H as [H1 H2].
    destruct (leaf x) as [a|]; [|reflexivity].
    destruct (fold_right _ _ l) as [b|]; [|reflexivity].
    now rewrite (Hx n H1), (IHl H2).
  - (* not: only a pure type test may be complemented *)
    destruct (leaf q) as [a|] eqn:Ea; [|reflexivity].
    destruct q; cbn [is_pure_type]; try reflexivity.
    cbn [leaf] in Ea. injection Ea as <-. cbn [pmatch] in H. exact H.
Qed.

(* search(p) yields exactly the nodes, in walk order, that match(p) accepts *)
Theorem search_is_filtered_walk p nodes : search p nodes = filter (pmatch p) nodes.
Proof.
  unfold search. induction nodes as [|n r IH]; [reflexivity|]. cbn [filter].
  destruct (prefilter p n) eqn:E; cbn [filter]; [now rewrite IH|].
  destruct (pmatch p n) eqn:M; [|exact IH]. apply prefilter_sound in M. congruence.
Qed.

(* the complement rule of the unrepaired code is unsound: a concrete witness *)
Example naive_not_complement_unsound :
  let p := PNode [1] (fun n => Nat.eqb (snd n) 7) in       (* Name(id='a') *)
  let naive_leaf_not := fun k : nat => negb (mem k [1]) in  (* ALL - leaf(inner) *)
  pmatch (PNot p) (1, 8) = true /\ naive_leaf_not (nkind (1, 8)) = false.
Proof. split; reflexivity. Qed.

(* The flat matcher is the nested one on the embedded pattern (nmatch_flat_counts), where a repetition of element
   patterns is deterministic, so that the nested matcher is exact (nmatch_flat_exact). *)
Theorem match_items_accepts_lang items : well_formed items -> forall tgt,
  match_items items false tgt <> None <-> lang items tgt.
Proof.
  intros Hwf tgt. rewrite <- (nmatch_flat_agrees items Hwf).
  now apply nmatch_flat_exact.
Qed.
