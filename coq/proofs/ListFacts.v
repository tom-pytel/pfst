(* Facts about firstn / skipn / nth / last / removelast / NoDup and sums over lists that Coq 8.16's List lacks, and the
   list step of induction principles for types that recurse through lists, shared by the proof files. *)
From Coq Require Import List Arith Lia.
Import ListNotations.

Section Lists.
  Context {A : Type}.
  Implicit Types l a b : list A.

  Lemma firstn_app_exact a b n : length a = n -> firstn n (a ++ b) = a.
  Proof. intros <-. rewrite firstn_app, Nat.sub_diag, firstn_all. apply app_nil_r. Qed.

  Lemma skipn_app_exact a b n : length a = n -> skipn n (a ++ b) = b.
  Proof. intros <-. now rewrite skipn_app, Nat.sub_diag, skipn_all. Qed.

  Lemma firstn_app_le a b n : n <= length a -> firstn n (a ++ b) = firstn n a.
  Proof. intros H. rewrite firstn_app. replace (n - length a) with 0 by lia. apply app_nil_r. Qed.

  Lemma skipn_skipn n m l : skipn n (skipn m l) = skipn (n + m) l.
  Proof.
    revert l; induction m as [|m IH]; intros l; [now rewrite Nat.add_0_r|].
    rewrite Nat.add_succ_r. destruct l; [now rewrite !skipn_nil | apply IH].
  Qed.

  Lemma nth_error_skipn n l i : nth_error (skipn n l) i = nth_error l (n + i).
  Proof. revert l; induction n as [|n IH]; intros [|x l]; cbn; auto. now destruct i. Qed.

  Lemma nth_error_firstn n l i : i < n -> nth_error (firstn n l) i = nth_error l i.
  Proof. revert l i; induction n as [|n IH]; intros [|x l] [|i] H; cbn; auto with arith; lia. Qed.

  Lemma nth_skipn n l i d : nth i (skipn n l) d = nth (n + i) l d.
  Proof. revert l; induction n as [|n IH]; intros [|x l]; cbn; auto. now destruct i. Qed.

  Lemma nth_firstn n l i d : i < n -> nth i (firstn n l) d = nth i l d.
  Proof. revert l i; induction n as [|n IH]; intros [|x l] [|i] H; cbn; auto with arith; lia. Qed.

  Lemma split_at l i d : i < length l -> l = firstn i l ++ nth i l d :: skipn (S i) l.
  Proof.
    revert i; induction l as [|x l IH]; intros [|i] H; cbn in *; try lia; [reflexivity|].
    f_equal. apply IH. lia.
  Qed.

  Lemma split_range l s e : s <= e -> l = firstn s l ++ firstn (e - s) (skipn s l) ++ skipn e l.
  Proof.
    intros H. rewrite <- (firstn_skipn s l) at 1. f_equal. rewrite <- (firstn_skipn (e - s) (skipn s l)) at 1.
    rewrite skipn_skipn. do 2 f_equal. lia.
  Qed.

  Lemma split_at2 l i j d : i < j < length l ->
    l = firstn i l ++ nth i l d :: firstn (j - i - 1) (skipn (S i) l) ++ nth j l d :: skipn (S j) l.
  Proof.
    intros H. rewrite (split_at l i d) at 1 by lia. do 2 f_equal.
    rewrite (split_at (skipn (S i) l) (j - i - 1) d) at 1 by (rewrite skipn_length; lia).
    rewrite nth_skipn, skipn_skipn. do 3 f_equal; lia.
  Qed.

  Lemma removelast_length l : length (removelast l) = length l - 1.
  Proof. induction l as [|x [|y l] IH]; [reflexivity..|]. cbn [removelast length] in *. lia. Qed.

  Lemma nth_last l d : nth (length l - 1) l d = last l d.
  Proof. induction l as [|x [|y l] IH]; [reflexivity..|]. cbn [length Nat.sub last nth] in *. now rewrite Nat.sub_0_r in *. Qed.

  Lemma last_app l b d : b <> [] -> last (l ++ b) d = last b d.
  Proof.
    intros H. induction l as [|x l IH]; [reflexivity|]. cbn [app last]. rewrite IH.
    destruct (l ++ b) eqn:E; [|reflexivity]. now destruct (app_eq_nil _ _ E).
  Qed.

  Lemma last_cons l x d : last (x :: l) d = last l x.
  Proof.
    revert x d. induction l as [|y l IH]; intros x d; [reflexivity|].
    change (last (y :: l) d = last (y :: l) x). now rewrite !IH.
  Qed.

  Lemma skipn_firstn_app a l b n k : n + k <= length l ->
    firstn n (skipn (length a + k) (a ++ l ++ b)) = firstn n (skipn k l).
  Proof.
    intros H. rewrite Nat.add_comm, <- skipn_skipn, skipn_app_exact by reflexivity.
    rewrite skipn_app. apply firstn_app_le. rewrite skipn_length. lia.
  Qed.

  Lemma NoDup_app a b : NoDup (a ++ b) <-> NoDup a /\ NoDup b /\ forall x, In x a -> ~ In x b.
  Proof.
    induction a as [|x a IH]; cbn.
    - split; [intros H; repeat split; [constructor | assumption | tauto] | tauto].
    - rewrite !NoDup_cons_iff, IH, in_app_iff. split.
      + intros (Hx & Ha & Hb & Hd). repeat split; try tauto. intros y [<-|Hy]; [tauto | now apply Hd].
      + intros ((Hx & Ha) & Hb & Hd). repeat split; try tauto; [|now auto]. intros [?|?]; [tauto | now apply (Hd x); auto].
  Qed.
End Lists.

(* a sum over a list, as the models write their size measures *)
Lemma fold_sum_app {A} (f : A -> nat) a b :
  fold_right (fun x n => f x + n) 0 (a ++ b) = fold_right (fun x n => f x + n) 0 a + fold_right (fun x n => f x + n) 0 b.
Proof. induction a as [|x a IH]; cbn [app fold_right]; lia. Qed.

(* The hypothesis for a list of children in a hand-written induction principle of a type that recurses through lists:
   f is the principle's own recursive call (a parameter here, so that the call is seen to be guarded). *)
Section All.
  Context {A : Type} {P : A -> Prop} (f : forall a, P a).
  Fixpoint Forall_all (l : list A) : Forall P l :=
    match l with [] => Forall_nil P | x :: r => Forall_cons x (f x) (Forall_all r) end.
End All.

Lemma NoDup_map_inj {A B} (f : A -> B) l : NoDup (map f l) -> forall x y, In x l -> In y l -> f x = f y -> x = y.
Proof.
  induction l as [|a l IH]; cbn; [tauto|]. rewrite NoDup_cons_iff. intros [Ha Hl] x y [<-|Hx] [<-|Hy] E; auto.
  - destruct Ha. rewrite E. now apply in_map.
  - destruct Ha. rewrite <- E. now apply in_map.
Qed.
