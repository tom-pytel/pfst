(* Round trip of repr_str_multiline through CPython's triple-quoted literal reader, for every string; get_docstr's
   dedent inverts the indentation applied by the put.
   Every text here is written character by character (escape_char, repr_char, SlotEscape.slot_escape_char), and a
   scanner reads it back character by character: the writing of c, in front of any text X, scans as c in front of the
   scan of X. That step is a finite check over the alphabet; reads_back lifts it to whole texts for any reader. *)
From Coq Require Import List Bool Arith.
From PF Require Import models.StrRepr proofs.ListFacts.
Import ListNotations.

Lemma sym_eqb_spec a b : reflect (a = b) (sym_eqb a b).
Proof.
  destruct a, b; simpl; try (constructor; congruence);
    destruct (Nat.eqb_spec k k0); constructor; congruence.
Qed.

Lemma sym_eqb_refl a : sym_eqb a a = true.
Proof. destruct (sym_eqb_spec a a); congruence. Qed.

Lemma reads_back (rd : pystr -> option pystr) (w : sym -> pystr) s T :
  (forall c X, rd (w c ++ X) = option_map (cons c) (rd X)) ->
  rd (flat_map w s ++ T) = option_map (app s) (rd T).
Proof.
  intros H. induction s as [|c s IH]; cbn [flat_map app].
  - now destruct (rd T).
  - rewrite <- app_assoc, H, IH. now destruct (rd T).
Qed.

Lemma decode_triple q X : is_quote q = true -> decode (triple q ++ X) = scan q X.
Proof. intros Hq. unfold decode, triple. cbn [app]. now rewrite Hq, !sym_eqb_refl. Qed.

Lemma scan_close q : is_quote q = true -> scan q (triple q) = Some [].
Proof. intros Hq. destruct q; try discriminate Hq; reflexivity. Qed.

(* The simple branch of repr_nonempty: a quote q of which no triple occurs in the escaped text.
   escape_char leaves the quotes bare, so here the step holds only where no closing triple begins. *)
Lemma scan_escape_char q c X : is_quote q = true -> (c = q -> starts2 q X = false) ->
  scan q (escape_char c ++ X) = option_map (cons c) (scan q X).
Proof.
  intros Hq H. destruct q; try discriminate; destruct c; cbn [escape_char app scan sym_eqb andb unesc]; try reflexivity.
  all: now rewrite H.
Qed.

(* a character other than the quote hides what follows it from the test for a closing triple
   (hd q X <> q: X is not empty and does not begin with q) *)
Lemma starts2_cut q A X : hd q X <> q -> starts2 q (A ++ X) = starts2 q A.
Proof.
  destruct X as [|x T]; cbn [hd]; intros Hx; [congruence|].
  destruct A as [|a [|b A]]; [destruct T| |]; cbn [app starts2]; try reflexivity;
    destruct (sym_eqb_spec x q); try congruence; now rewrite ?andb_false_r.
Qed.

Lemma has_triple_app_l q a b : has_triple q (a ++ b) = false -> has_triple q a = false.
Proof.
  induction a as [|c a IH]; cbn [app has_triple]; [reflexivity|]. intros H.
  apply orb_false_iff in H as [H1 H2]. rewrite (IH H2), orb_false_r.
  destruct (sym_eqb c q); [|reflexivity]. cbn [andb] in *.
  (* two quotes at the head of a stand at the head of a ++ b as well *)
  destruct a as [|x [|y a]]; [reflexivity..|exact H1].
Qed.

Lemma has_triple_app_r q a b : has_triple q (a ++ b) = false -> has_triple q b = false.
Proof.
  induction a as [|c a IH]; cbn [app has_triple]; [auto|]. intros H.
  apply orb_false_iff in H. apply IH, H.
Qed.

Lemma scan_escaped q s X : is_quote q = true -> hd q X <> q -> has_triple q (escaped s) = false ->
  scan q (escaped s ++ X) = option_map (app s) (scan q X).
Proof.
  intros Hq Hx. unfold escaped. induction s as [|c s IH]; cbn [flat_map app]; intros Hno.
  - now destruct (scan q X).
  - rewrite <- app_assoc, scan_escape_char, IH.
    + now destruct (scan q X).
    + exact (has_triple_app_r _ _ _ Hno).
    + exact Hq.
    + (* a quote written bare: no two more follow, in the escaped text or at the head of X *)
      intros ->. rewrite starts2_cut by exact Hx.
      destruct q; try discriminate; cbn [escape_char app has_triple sym_eqb andb] in Hno.
      all: now apply orb_false_iff in Hno.
Qed.

Lemma escaped_snoc s c : escaped (s ++ [c]) = escaped s ++ escape_char c.
Proof. unfold escaped. rewrite flat_map_app. simpl. rewrite app_nil_r. reflexivity. Qed.

(* what repr_nonempty makes of the writing w of the last character: a final quote gets a backslash. Either way the
   result does not begin with the quote and reads back as c in front of the closing quotes. *)
Lemma last_char_written q c : is_quote q = true ->
  let w := escape_char c in
  let l := last w DQ in
  let X := (if sym_eqb q l then removelast w ++ [BS; l] else w) ++ triple q in
  hd q X <> q /\ scan q X = Some [c].
Proof. intros Hq. destruct q; try discriminate Hq; destruct c; split; (discriminate || reflexivity). Qed.

Lemma decode_simple q s :
  s <> [] -> is_quote q = true -> has_triple q (escaped s) = false ->
  let e := escaped s in
  let l := last e DQ in
  decode (triple q ++ (if sym_eqb q l then removelast e ++ [BS; l] else e) ++ triple q) = Some s.
Proof.
  intros Hne Hq Hno e l. rewrite (decode_triple q _ Hq).
  destruct (exists_last Hne) as [s0 [c ->]]. subst e l.
  rewrite escaped_snoc in *. apply has_triple_app_l in Hno.
  assert (Hec : escape_char c <> []) by (destruct c; discriminate).
  rewrite (last_app _ _ _ Hec), (removelast_app _ Hec), <- app_assoc.
  destruct (last_char_written q c Hq) as [Hx Hs].
  destruct (sym_eqb q (last (escape_char c) DQ)); rewrite <- app_assoc, scan_escaped, Hs by assumption; reflexivity.
Qed.

(* the fallback branch of repr_nonempty: the three replaces it applies to repr() *)
Definition fb (t : pystr) : pystr := replace1 NUL [BS; BS] (replace2 BS Ln [NL] (replace2 BS BS [NUL] t)).

Lemma replace2_cons2 a b rep x y r :
  replace2 a b rep (x :: y :: r) =
  if sym_eqb x a && sym_eqb y b then rep ++ replace2 a b rep r else x :: replace2 a b rep (y :: r).
Proof. reflexivity. Qed.

Lemma replace2_char a b rep c t : c <> a -> replace2 a b rep (c :: t) = c :: replace2 a b rep t.
Proof. intros Hc. destruct t; [reflexivity|]. rewrite replace2_cons2. now destruct (sym_eqb_spec c a). Qed.

(* str.replace of the pair a b steps over a pair a c as a whole, unless it is a a and b another character: then the
   second a could pair with what follows *)
Lemma replace2_pair a b rep c t : (c = a -> b = a) ->
  replace2 a b rep (a :: c :: t) = (if sym_eqb c b then rep else [a; c]) ++ replace2 a b rep t.
Proof.
  intros H. rewrite replace2_cons2, sym_eqb_refl. cbn [andb]. destruct (sym_eqb_spec c b) as [|Hb]; [reflexivity|].
  rewrite replace2_char; [reflexivity|]. intros E. now apply Hb; rewrite H.
Qed.

(* what fb makes of repr(): a newline stands raw again. BS BS is parked as NUL (repr leaves no NUL bare) while BS Ln is
   replaced, so that the n of an escaped backslash followed by the letter n is not taken for the escape of a newline. *)
Definition fb_char (q c : sym) : pystr := match c with NL => [NL] | c => repr_char q c end.

Lemma fb_repr_char q c t : is_quote q = true -> fb (repr_char q c ++ t) = fb_char q c ++ fb t.
Proof.
  intros Hq. unfold fb. destruct q; try discriminate; destruct c; cbn [repr_char fb_char sym_eqb app].
  (* one line for each replace2; the replace1 computes *)
  all: rewrite ?replace2_pair, ?replace2_char by (discriminate || auto); cbn [sym_eqb app].
  all: rewrite ?replace2_pair, ?replace2_char by (discriminate || auto); reflexivity.
Qed.

Lemma fallback_chain q s : is_quote q = true ->
  fb (q :: flat_map (repr_char q) s ++ [q]) = q :: flat_map (fb_char q) s ++ [q].
Proof.
  intros Hq.
  assert (Hq1 : forall t, fb (q :: t) = q :: fb t).
  { intros t. unfold fb. rewrite !replace2_char by (destruct q; discriminate). now destruct q. }
  rewrite Hq1. f_equal. induction s as [|c s IH]; cbn [flat_map app].
  - now rewrite Hq1.
  - now rewrite <- !app_assoc, fb_repr_char, IH.
Qed.

Theorem repr_str_multiline_round_trip s : decode (repr_str_multiline s) = Some s.
Proof.
  destruct s as [|c0 s0]; [reflexivity|].
  change (repr_str_multiline (c0 :: s0)) with (repr_nonempty (c0 :: s0)).
  set (s := c0 :: s0). assert (Hne : s <> []) by discriminate. clearbody s.
  unfold repr_nonempty.
  destruct (has_triple DQ (escaped s)) eqn:Hd3; destruct (has_triple SQ (escaped s)) eqn:Hs3; cbn [andb negb].
  - (* both kinds of triple quotes occur: repr() route, with whichever quote repr() chose *)
    unfold py_repr. set (q := if has SQ s && negb (has DQ s) then DQ else SQ).
    assert (Hq : is_quote q = true) by (subst q; now destruct (has SQ s && negb (has DQ s))).
    clearbody q. fold (fb (q :: flat_map (repr_char q) s ++ [q])). rewrite (fallback_chain q s Hq).
    change (decode (triple q ++ (flat_map (fb_char q) s ++ [q]) ++ [q; q]) = Some s).
    rewrite (decode_triple q _ Hq), <- app_assoc. change ([q] ++ [q; q]) with (triple q).
    rewrite reads_back, (scan_close q Hq).
    + cbn. now rewrite app_nil_r.
    + intros c X. destruct q; try discriminate Hq; destruct c; reflexivity.
  - (* only triple double quotes occur: single quotes, whatever the text ends in *)
    cbn [hd last]. destruct (sym_eqb _ _); exact (decode_simple SQ s Hne eq_refl Hs3).
  - (* only triple single quotes occur: double quotes *)
    cbn [hd last]. destruct (sym_eqb _ _); exact (decode_simple DQ s Hne eq_refl Hd3).
  - (* neither occurs: double quotes unless the text ends in one *)
    cbn [hd last]. destruct (sym_eqb _ _).
    + exact (decode_simple SQ s Hne eq_refl Hs3).
    + exact (decode_simple DQ s Hne eq_refl Hd3).
Qed.

Lemma starts_with_app p l : starts_with p (p ++ l) = true.
Proof. induction p as [|a p IH]; simpl; [reflexivity|]. rewrite sym_eqb_refl. exact IH. Qed.

Lemma dedent_indent_line ind l : dedent_line ind (indent_line ind l) = l.
Proof.
  unfold dedent_line, indent_line. destruct l as [|c l].
  - destruct ind as [|a ind]; reflexivity.
  - rewrite starts_with_app. now apply skipn_app_exact.
Qed.

Definition no_leading_ws (l : pystr) : Prop := match l with c :: _ => is_ws c = false | [] => True end.

Lemma dedent_first_line ind l : Forall (fun c => is_ws c = true) ind -> no_leading_ws l -> dedent_line ind l = l.
Proof.
  intros Hind Hl. unfold dedent_line.
  destruct ind as [|a ind]; [destruct l; reflexivity|].
  inversion Hind as [|? ? Ha _]; subst.
  destruct l as [|c l]; [reflexivity|]. simpl in Hl.
  assert (Hs : starts_with (a :: ind) (c :: l) = false).
  { simpl. destruct (sym_eqb_spec a c) as [->|]; [congruence|reflexivity]. }
  rewrite Hs. simpl ws_prefix_len. rewrite Hl. reflexivity.
Qed.

Theorem docstr_lines_round_trip ind ls :
  Forall (fun c => is_ws c = true) ind ->
  match ls with f :: _ => no_leading_ws f | [] => True end ->
  get_docstr_lines ind (put_docstr_lines ind ls) = ls.
Proof.
  intros Hind Hf. destruct ls as [|f r]; [reflexivity|].
  unfold get_docstr_lines, put_docstr_lines. simpl. rewrite dedent_first_line by assumption.
  f_equal. rewrite map_map. rewrite (map_ext _ _ (dedent_indent_line ind)). apply map_id.
Qed.
