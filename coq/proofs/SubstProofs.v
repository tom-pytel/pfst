(* Substitution: the whole-match template is the identity (nested or not), the count is the number of outermost
   matches, a tree without matches is returned unchanged, and the non-nested substitution is the one tree that arises
   from the original by replacing exactly its outermost matches (`replaced`). *)
From Coq Require Import List Bool.
From PF Require Import models.Subst proofs.ListFacts.

Section Ind.
  Variable P : tr -> Prop.
  Hypothesis H : forall l k, Forall P k -> P (Nd l k).
  Fixpoint tr_ind' (t : tr) : P t :=
    let 'Nd l k := t in
    H l k (Forall_all tr_ind' k).
End Ind.

Theorem sub_whole_is_identity p t : sub p TWhole t = t.
Proof.
  induction t as [l ks IH] using tr_ind'. cbn [sub]. destruct (p (Nd l ks)); [reflexivity|].
  f_equal. rewrite (map_ext_Forall _ _ IH). apply map_id.
Qed.

Lemma subn2_whole p t : subn2 p TWhole t = (t, t).
Proof.
  induction t as [l ks IH] using tr_ind'. cbn [subn2].
  rewrite (map_ext_Forall _ _ IH), map_map. cbn [fst]. rewrite map_id. destruct (p (Nd l ks)); reflexivity.
Qed.

Theorem subn_whole_is_identity p t : subn p TWhole t = t.
Proof. unfold subn. rewrite subn2_whole. reflexivity. Qed.

Theorem cnt_is_outermost p t : cnt p t = length (outermost p t).
Proof.
  induction t as [l ks IH] using tr_ind'. cbn [cnt outermost]. destruct (p (Nd l ks)); [reflexivity|].
  induction IH as [|k ks Hk _ IHks]; simpl; [reflexivity|]. rewrite app_length. congruence.
Qed.

Theorem sub_nomatch_unchanged p tm t : nomatch p t = true -> sub p tm t = t /\ cnt p t = 0.
Proof.
  induction t as [l ks IH] using tr_ind'. cbn [nomatch sub cnt]. intros H.
  apply andb_true_iff in H as [Hp Hk]. apply negb_true_iff in Hp. rewrite Hp. clear Hp.
  induction IH as [|k ks IHk _ IHks]; [split; reflexivity|]. cbn [forallb map fold_right] in *.
  apply andb_true_iff in Hk as [Hk Hks]. destruct (IHk Hk) as [-> ->], (IHks Hks) as [E ->].
  injection E as ->. split; reflexivity.
Qed.

(* the result of a non-nested substitution, described without reference to the algorithm: it relates to the original
   by replacing exactly the outermost matches *)
Inductive replaced (p : tr -> bool) (tm : tmpl) : tr -> tr -> Prop :=
| rep_here t : p t = true -> replaced p tm t (fill tm t)
| rep_down l ks ks' : p (Nd l ks) = false -> Forall2 (replaced p tm) ks ks' -> replaced p tm (Nd l ks) (Nd l ks').

Theorem sub_meets_spec p tm t : replaced p tm t (sub p tm t).
Proof.
  induction t as [l ks IH] using tr_ind'. cbn [sub]. destruct (p (Nd l ks)) eqn:Hp.
  - apply rep_here. exact Hp.
  - apply rep_down; [exact Hp|]. clear Hp. induction IH as [|k ks Hk _ IHks]; simpl; [constructor|constructor; assumption].
Qed.

Theorem spec_is_functional p tm t : forall r, replaced p tm t r -> r = sub p tm t.
Proof.
  induction t as [l ks IH] using tr_ind'. intros r Hr. cbn [sub].
  inversion Hr as [t' Hp Ht|l' ks0 ks' Hp Hf]; subst; rewrite Hp; [reflexivity|].
  f_equal. clear Hr Hp. revert ks' Hf.
  induction IH as [|k ks Hk _ IHks]; intros ks' Hf; inversion Hf; subst; cbn [map]; [reflexivity|].
  f_equal; [apply Hk; assumption|apply IHks; assumption].
Qed.
