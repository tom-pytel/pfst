(* C19: the alias name built back to front is the chain's identifiers in source order joined by dots; everything else is refused. *)
From Coq Require Import List String.
From PF Require Import models.Alias.
Import ListNotations.
Local Open Scope string_scope.

Lemma sapp_assoc (a b c : string) : (a ++ b) ++ c = a ++ (b ++ c).
Proof. induction a as [|ch a IH]; cbn; [reflexivity|now rewrite IH]. Qed.

Lemma sapp_nil_r (a : string) : a ++ "" = a.
Proof. induction a as [|ch a IH]; cbn; [reflexivity|now rewrite IH]. Qed.

Lemma concat_snoc (sep : string) (l : list string) (x : string) : l <> [] ->
  String.concat sep (l ++ [x])%list = String.concat sep l ++ sep ++ x.
Proof.
  induction l as [|y [|z l] IH]; intros Hne; [contradiction|reflexivity|].
  (* concat puts the separator behind the head of a list of two or more *)
  change (y ++ sep ++ String.concat sep ((z :: l) ++ [x])%list = (y ++ sep ++ String.concat sep (z :: l)) ++ sep ++ x).
  rewrite IH by discriminate. now rewrite !sapp_assoc.
Qed.

Lemma parts_nonempty e l : parts e = Some l -> l <> [].
Proof.
  destruct e as [id|v attr|]; cbn; intros H.
  - inversion H; discriminate.
  - destruct (parts v) as [l0|]; [|discriminate]. inversion H. destruct l0; discriminate.
  - discriminate.
Qed.

Lemma alias_loop_spec e : forall name, alias_loop e name = option_map (fun p => p ++ name) (dotted e).
Proof.
  unfold dotted. induction e as [id|v IH attr|]; intros name; cbn [alias_loop parts].
  - reflexivity.
  - rewrite IH. destruct (parts v) as [l|] eqn:E; cbn [option_map]; [|reflexivity].
    rewrite (concat_snoc "." l attr (parts_nonempty _ _ E)). now rewrite !sapp_assoc.
  - reflexivity.
Qed.

Theorem to_alias_is_dotted_path e : to_alias e = dotted e.
Proof.
  unfold to_alias. rewrite alias_loop_spec. destruct (dotted e) as [p|]; cbn; [now rewrite sapp_nil_r|reflexivity].
Qed.

Example alias_nonvacuous :
  to_alias (DAttr (DAttr (DAttr (DName "pkg") "sub") "mod") "name") = Some "pkg.sub.mod.name" /\
  parts (DAttr (DAttr (DName "a") "b") "c") = Some ["a"; "b"; "c"] /\
  to_alias (DAttr DOther "x") = None.
Proof. repeat split; reflexivity. Qed.
