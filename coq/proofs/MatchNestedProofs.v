(* C17, nested quantifiers: whatever the matcher accepts is in the regular language of the (non-atomic) nested pattern;
   the converse fails (atomic repetitions), with a witness; it holds again when repetitions are deterministic. The flat
   model models/Match.v is this matcher on the embedded pattern, so its language theorem is the one proved here. *)
From Coq Require Import List Bool Arith Lia.
From PF Require Import models.Match models.MatchNested proofs.ListFacts.
Import ListNotations.

(* the nested fixes are the top-level functions *)
Lemma step_NQ mn mx g sub k tgt :
  step (NQ mn mx g sub) k tgt = quant (arep sub) k mn (cap_of mx (length tgt)) g tgt.
Proof. reflexivity. Qed.

Lemma ilang_NQ_ex mn mx g sub w :
  ilang (NQ mn mx g sub) w <-> exists c, in_bounds mn mx c /\ nreps (slang sub) c w.
Proof. reflexivity. Qed.

Lemma wf_item_NQ mn mx g sub :
  wf_item (NQ mn mx g sub) = (match mx with Some m => Nat.leb mn m | None => Nat.ltb 0 (min_lens sub) end && wf_items sub).
Proof. reflexivity. Qed.

Section Ind.
  Variable P : nitem -> Prop.
  Hypothesis HE : forall e, P (NElem e).
  Hypothesis HQ : forall mn mx g sub, Forall P sub -> P (NQ mn mx g sub).
  Fixpoint nitem_ind' (it : nitem) : P it :=
    match it with
    | NElem e => HE e
    | NQ mn mx g sub =>
        HQ mn mx g sub (Forall_all nitem_ind' sub)
    end.
End Ind.

Lemma nreps_snoc (L : list nat -> Prop) : forall m a0 a1, nreps L m a0 -> L a1 -> nreps L (S m) (a0 ++ a1).
Proof.
  induction m as [|m IH]; intros a0 a1 H0 H1.
  - cbn in H0. subst a0. cbn. exists a1, []. rewrite app_nil_r. auto.
  - cbn in H0. destruct H0 as (a & b & -> & Ha & Hb).
    exists a, (b ++ a1). rewrite app_assoc. auto.
Qed.

Lemma nreps_mono (L L' : list nat -> Prop) : (forall w, L w -> L' w) -> forall c w, nreps L c w -> nreps L' c w.
Proof.
  intros HL. induction c as [|c IH]; intros w H; cbn in *; [exact H|].
  destruct H as (a & b & -> & Ha & Hb). exists a, b. auto.
Qed.

Lemma nreps_length (L : list nat -> Prop) : ~ L [] -> forall c w, nreps L c w -> c <= length w.
Proof.
  intros HL. induction c as [|c IH]; intros w H; [lia|].
  cbn in H. destruct H as (a & b & -> & Ha & Hb). apply IH in Hb.
  rewrite app_length. destruct a; [contradiction|]. cbn [length]. lia.
Qed.

(* what a matcher leaves of the target: the part of its result that the continuation alone decides *)
Definition rest_of (o : option res) : option (list nat) := option_map snd o.

Section LoopsSound.
  Variable rep : list nat -> option (list nat).
  Variable k : list nat -> option res.
  Variable L : list nat -> Prop.
  Hypothesis Hrep : forall t rest, rep t = Some rest -> exists a, t = a ++ rest /\ L a.

  (* starts = the target at the start of every matched repetition, latest first; cur = what is left now *)
  Fixpoint chain (starts : list (list nat)) (cur tgt : list nat) : Prop :=
    match starts with
    | [] => cur = tgt
    | s :: st => rep s = Some cur /\ chain st s tgt
    end.

  Lemma chain_nreps : forall starts cur tgt, chain starts cur tgt -> exists a, tgt = a ++ cur /\ nreps L (length starts) a.
  Proof.
    induction starts as [|s st IH]; intros cur tgt H; cbn in H.
    - subst. exists []. split; reflexivity.
    - destruct H as [Hr Hc]. destruct (Hrep _ _ Hr) as (a1 & -> & Ha1).
      destruct (IH _ _ Hc) as (a0 & -> & Ha0).
      exists (a0 ++ a1). split; [now rewrite app_assoc|]. cbn [length]. now apply nreps_snoc.
  Qed.

  Lemma reps_upto_chain : forall n starts cur tgt starts' cur',
      chain starts cur tgt -> reps_upto rep n starts cur = (starts', cur') ->
      chain starts' cur' tgt /\ length starts <= length starts' <= length starts + n.
  Proof.
    induction n as [|n IH]; intros starts cur tgt starts' cur' Hc H; cbn in H.
    - injection H as <- <-. split; [assumption|lia].
    - destruct (rep cur) as [rest|] eqn:Hr.
      + apply IH with (tgt := tgt) in H; [|cbn; auto]. cbn [length] in H. destruct H as [H1 H2]. split; [assumption|lia].
      + injection H as <- <-. split; [assumption|lia].
  Qed.

  (* both loops end with the continuation accepting at some state of the chain *)
  Lemma down_sound mn hi tgt rest : forall starts cur,
      chain starts cur tgt -> mn <= length starts <= hi -> rest_of (down k mn starts cur) = Some rest ->
      exists starts' cur', chain starts' cur' tgt /\ mn <= length starts' <= hi /\ rest_of (k cur') = Some rest.
  Proof.
    induction starts as [|s st IH]; intros cur Hc Hl H; cbn [down] in H; destruct (k cur) as [r0|] eqn:Hk.
    - exists [], cur. rewrite Hk. auto.
    - discriminate.
    - exists (s :: st), cur. rewrite Hk. auto.
    - destruct (Nat.leb_spec (length (s :: st)) mn) as [|Hgt]; [discriminate|]. cbn [length] in *.
      apply (IH s); [apply Hc|lia|exact H].
  Qed.

  Lemma up_sound lo hi tgt rest : forall more starts cur,
      chain starts cur tgt -> lo <= length starts -> length starts + more <= hi ->
      rest_of (up rep k more starts cur) = Some rest ->
      exists starts' cur', chain starts' cur' tgt /\ lo <= length starts' <= hi /\ rest_of (k cur') = Some rest.
  Proof.
    induction more as [|m IH]; intros starts cur Hc Hlo Hhi H; cbn [up] in H; destruct (k cur) as [r0|] eqn:Hk.
    - exists starts, cur. rewrite Hk. split; [assumption|]. split; [lia|assumption].
    - discriminate.
    - exists starts, cur. rewrite Hk. split; [assumption|]. split; [lia|assumption].
    - destruct (rep cur) as [nxt|] eqn:Hr; [|discriminate].
      apply (IH (cur :: starts) nxt); [exact (conj Hr Hc)|cbn [length]; lia..|exact H].
  Qed.

  (* Nat.max mn cap: a lazy quantifier with cap < mn still makes its mn repetitions; in step_sound wf_item (mn <= mx) removes the max *)
  Lemma quant_sound mn cap g tgt rest :
    rest_of (quant rep k mn cap g tgt) = Some rest ->
    exists c a post, tgt = a ++ post /\ nreps L c a /\ mn <= c <= Nat.max mn cap /\ rest_of (k post) = Some rest.
  Proof.
    unfold quant. intros H.
    assert (exists st' cur', chain st' cur' tgt /\ mn <= length st' <= Nat.max mn cap /\ rest_of (k cur') = Some rest)
      as (st' & cur' & H1 & H2 & H3).
    { destruct g; destruct (reps_upto rep _ [] tgt) as [starts cur] eqn:Hu.
      all: destruct (reps_upto_chain _ [] tgt tgt _ _ eq_refl Hu) as [Hc Hlen]; cbn [length] in Hlen.
      all: destruct (Nat.ltb_spec (length starts) mn) as [|Hge]; [discriminate|].
      - apply (down_sound mn (Nat.max mn cap) tgt rest starts cur); [exact Hc|lia|exact H].
      - apply (up_sound mn (Nat.max mn cap) tgt rest (cap - mn) starts cur); [exact Hc|lia..|exact H]. }
    destruct (chain_nreps _ _ _ H1) as (a & -> & Ha). exists (length st'), a, cur'. auto.
  Qed.
End LoopsSound.

Definition sound_k (f : (list nat -> option res) -> list nat -> option res) (L : list nat -> Prop) : Prop :=
  forall k tgt rest, rest_of (f k tgt) = Some rest -> exists a post, tgt = a ++ post /\ L a /\ rest_of (k post) = Some rest.

Lemma seq_sound : forall l, Forall (fun it => wf_item it = true -> sound_k (step it) (ilang it)) l ->
                            wf_items l = true -> sound_k (seq l) (slang l).
Proof.
  induction l as [|i l IH]; intros HF Hwf k tgt rest H.
  - exists [], tgt. split; [reflexivity|]. split; [reflexivity|exact H].
  - cbn [wf_items] in Hwf. apply andb_prop in Hwf. destruct Hwf as [Hwi Hwl].
    apply Forall_cons_iff in HF. destruct HF as [Hi Hl].
    destruct (Hi Hwi _ _ _ H) as (a & post & -> & Ha & Hk1).
    destruct (IH Hl Hwl _ _ _ Hk1) as (a2 & post2 & -> & Ha2 & Hk2).
    exists (a ++ a2), post2. rewrite app_assoc. split; [reflexivity|]. split; [|assumption].
    exists a, a2. auto.
Qed.

Lemma step_sound : forall it, wf_item it = true -> sound_k (step it) (ilang it).
Proof.
  induction it as [e|mn mx g sub IH] using nitem_ind'; intros Hwf k tgt rest H.
  - cbn in H. destruct tgt as [|t ts]; [discriminate|]. destruct (ematch e t) eqn:He; [|discriminate].
    exists [t], ts. cbn. eauto.
  - rewrite wf_item_NQ in Hwf. apply andb_prop in Hwf. destruct Hwf as [Hb Hws]. rewrite step_NQ in H.
    apply (quant_sound _ _ (slang sub)) in H.
    + destruct H as (c & a & post & -> & Hn & Hc & Hk). exists a, post. split; [reflexivity|]. split; [|assumption].
      rewrite ilang_NQ_ex. exists c. split; [|assumption].
      unfold in_bounds, cap_of in *. destruct mx as [m|]; [apply Nat.leb_le in Hb|]; lia.
    + (* one repetition: the sub-list with the continuation that keeps what is left *)
      intros t rest' Ht. destruct (seq_sound sub IH Hws _ _ _ Ht) as (a & post & -> & Ha & [= ->]). eauto.
Qed.

(* complete or partial (one repetition inside an enclosing quantifier): a prefix is in the language, and what the
   result reports as left is what follows it *)
Theorem nmatch_rest_sound items p tgt rest :
  wf_items items = true -> rest_of (nmatch items p tgt) = Some rest ->
  exists a, tgt = a ++ rest /\ slang items a /\ (p = false -> rest = []).
Proof.
  intros Hwf H. apply seq_sound in H; [|apply Forall_forall; intros it _; apply step_sound|assumption].
  destruct H as (a & post & -> & Ha & Hk). exists a. unfold final in Hk.
  destruct (p || _) eqn:Hp; [|discriminate]. injection Hk as <-.
  split; [reflexivity|]. split; [exact Ha|]. intros ->. now destruct post.
Qed.

Theorem nmatch_sound items tgt r :
  wf_items items = true -> nmatch items false tgt = Some r -> slang items tgt.
Proof.
  intros Hwf H. destruct (nmatch_rest_sound items false tgt (snd r) Hwf) as (a & -> & Ha & E); [now rewrite H|].
  now rewrite E, app_nil_r.
Qed.

(* The converse fails, because a repetition is atomic. (?:b.?b)?b on "bbb": the regular expression matches (the optional
   group takes "bb", with .? empty), the matcher's first repetition takes "bbb" (.? greedy) and is not re-matched when the
   trailing b then fails; giving the whole repetition back leaves "bbb" for the single trailing b. *)
Definition atomic_witness : list nitem :=
  [NQ 0 (Some 1) true [NElem (ELit 1); NQ 0 (Some 1) true [NElem EAny]; NElem (ELit 1)]; NElem (ELit 1)].

Theorem nmatch_complete_refuted :
  wf_items atomic_witness = true /\ slang atomic_witness [1; 1; 1] /\ nmatch atomic_witness false [1; 1; 1] = None.
Proof.
  split; [reflexivity|]. split; [|vm_compute; reflexivity].
  (* the language does not look at greediness, and with the inner quantifier lazy the matcher itself finds the word *)
  exact (nmatch_sound [NQ 0 (Some 1) true [NElem (ELit 1); NQ 0 (Some 1) false [NElem EAny]; NElem (ELit 1)]; NElem (ELit 1)]
           [1; 1; 1] _ eq_refl eq_refl).
Qed.

(* Completeness when one repetition is deterministic: if the repetition function finds THE decomposition (every word of L
   is recognised in front of any rest), the loops try every admissible repetition count, so the quantifier accepts whenever
   the regular expression does. *)
Section LoopsComplete.
  Variable rep : list nat -> option (list nat).
  Variable k : list nat -> option res.
  Variable L : list nat -> Prop.
  Hypothesis Hdet : forall a rest, L a -> rep (a ++ rest) = Some rest.

  (* greedy: the back-off, once it succeeds from a state, succeeds from every state pushed on top of it *)
  Lemma down_push mn s st cur : mn <= length st -> down k mn st s <> None -> down k mn (s :: st) cur <> None.
  Proof.
    intros Hl H. cbn [down]. destruct (k cur); [discriminate|].
    destruct (Nat.leb_spec (length (s :: st)) mn) as [Hle|]; [cbn [length] in Hle; lia|exact H].
  Qed.

  Lemma reps_upto_down mn : forall n starts cur starts' cur',
      reps_upto rep n starts cur = (starts', cur') -> mn <= length starts -> down k mn starts cur <> None ->
      mn <= length starts' /\ down k mn starts' cur' <> None.
  Proof.
    induction n as [|n IH]; intros starts cur starts' cur' H Hl Hd; cbn in H.
    - injection H as <- <-. auto.
    - destruct (rep cur) as [rest|]; [|injection H as <- <-; auto].
      apply (IH _ _ _ _ H); [cbn [length]; lia|now apply down_push].
  Qed.

  (* so it succeeds after the count-up if that passes the state "c repetitions done, post left" *)
  Lemma reps_upto_then_down mn post : k post <> None -> forall c n a starts starts' cur',
      nreps L c a -> c <= n -> mn <= length starts + c -> reps_upto rep n starts (a ++ post) = (starts', cur') ->
      mn <= length starts' /\ down k mn starts' cur' <> None.
  Proof.
    intros Hk. induction c as [|c IH]; intros n a starts starts' cur' Ha Hn Hl H; cbn in Ha.
    - subst a. cbn [app] in H. apply (reps_upto_down mn _ _ _ _ _ H); [lia|].
      destruct starts; cbn [down]; destruct (k post); congruence.
    - destruct Ha as (a1 & b & -> & Ha1 & Hb). destruct n as [|n]; [lia|].
      cbn [reps_upto] in H. rewrite <- app_assoc, (Hdet a1 (b ++ post) Ha1) in H.
      apply (IH n b _ _ _ Hb) in H; [exact H|lia|cbn [length]; lia].
  Qed.

  (* lazy: with d repetitions available and at least d more allowed, the loop comes by the state that leaves post *)
  Lemma up_complete post : k post <> None -> forall d more a starts,
      nreps L d a -> d <= more -> up rep k more starts (a ++ post) <> None.
  Proof.
    intros Hk. induction d as [|d IH]; intros more a starts Ha Hm; cbn in Ha.
    - subst a. cbn [app]. destruct more; cbn [up]; destruct (k post); congruence.
    - destruct Ha as (a1 & b & -> & Ha1 & Hb). destruct more as [|more]; [lia|].
      cbn [up]. destruct (k ((a1 ++ b) ++ post)); [discriminate|].
      rewrite <- app_assoc, (Hdet a1 (b ++ post) Ha1). apply IH; [assumption|lia].
  Qed.

  (* and the count-up to the minimum in front of it takes exactly n of the c available repetitions *)
  Lemma reps_upto_takes more post : k post <> None -> forall n c a starts starts' cur',
      nreps L c a -> n <= c -> c - n <= more -> reps_upto rep n starts (a ++ post) = (starts', cur') ->
      length starts' = length starts + n /\ up rep k more starts' cur' <> None.
  Proof.
    intros Hk. induction n as [|n IH]; intros c a starts starts' cur' Ha Hn Hm H.
    - injection H as <- <-. split; [lia|]. apply (up_complete post Hk c); [exact Ha|lia].
    - destruct c as [|c]; [lia|]. cbn in Ha. destruct Ha as (a1 & b & -> & Ha1 & Hb).
      cbn [reps_upto] in H. rewrite <- app_assoc, (Hdet a1 (b ++ post) Ha1) in H.
      apply (IH c b) in H; [|exact Hb|lia..]. cbn [length] in H. split; [lia|apply H].
  Qed.

  Lemma quant_complete mn cap g a post c :
    nreps L c a -> mn <= c <= cap -> k post <> None -> quant rep k mn cap g (a ++ post) <> None.
  Proof.
    intros Ha Hc Hk. unfold quant. destruct g.
    - destruct (reps_upto rep cap [] (a ++ post)) as [starts cur] eqn:Hu.
      destruct (reps_upto_then_down mn post Hk c cap a [] starts cur Ha) as [Hl Hd]; [lia|cbn [length]; lia|exact Hu|].
      destruct (Nat.ltb_spec (length starts) mn); [lia|exact Hd].
    - destruct (reps_upto rep mn [] (a ++ post)) as [starts cur] eqn:Hu.
      destruct (reps_upto_takes (cap - mn) post Hk mn c a [] starts cur Ha) as [Hl Hd]; [lia..|exact Hu|].
      destruct (Nat.ltb_spec (length starts) mn); [cbn [length] in Hl; lia|exact Hd].
  Qed.
End LoopsComplete.

(* Flat patterns. One repetition of element patterns is Match.rep, which is deterministic (rep_app), so quant_complete
   applies with "rep es a = Some []" as the language of one repetition: completeness is proved against Match.lang itself,
   soundness comes from nmatch_sound through the language of the embedded pattern. *)
Lemma seq_flat es : forall k t, seq (map NElem es) k t = match rep es t with Some rest => k rest | None => None end.
Proof.
  induction es as [|e es IH]; intros k t; cbn [map seq rep]; [reflexivity|].
  cbn [step]. destruct t as [|x xs]; [reflexivity|]. destruct (ematch e x); [apply IH|reflexivity].
Qed.

Lemma arep_flat es t : arep (map NElem es) t = rep es t.
Proof. unfold arep. rewrite seq_flat. destruct (rep es t); reflexivity. Qed.

Lemma slang_flat es : forall a, slang (map NElem es) a <-> rep es a = Some [].
Proof.
  induction es as [|e es IH]; intros a; cbn [map slang rep].
  - split; [intros ->; reflexivity|]. destruct a; [reflexivity|discriminate].
  - split.
    + intros (x & b & -> & (t & -> & Ht) & Hb). cbn. rewrite Ht. now apply IH.
    + destruct a as [|t ts]; [discriminate|]. destruct (ematch e t) eqn:Ht; [|discriminate]. intros H.
      exists [t], ts. split; [reflexivity|]. split; [cbn; eauto|now apply IH].
Qed.

(* one repetition matches a prefix of the target, and only the prefix decides *)
Lemma rep_spec sub : forall tgt rest, rep sub tgt = Some rest <-> exists a, tgt = a ++ rest /\ rep sub a = Some [].
Proof.
  induction sub as [|e r IH]; intros tgt rest; cbn [rep].
  - split; [intros [= <-]; now exists []|]. intros ([|x a] & -> & Ha); [reflexivity|discriminate].
  - destruct tgt as [|t ts]; [split; [discriminate|]; intros ([|x a] & E & Ha); discriminate|].
    destruct (ematch e t) eqn:Em.
    + rewrite IH. split.
      * intros (a & -> & Ha). exists (t :: a). cbn. now rewrite Em.
      * intros ([|t' a] & E & Ha); [discriminate|]. injection E as <- ->. rewrite Em in Ha. now exists a.
    + split; [discriminate|]. intros ([|t' a] & E & Ha); [discriminate|]. injection E as <- ->.
      now rewrite Em in Ha.
Qed.

Lemma rep_app es a rest : rep es a = Some [] -> rep es (a ++ rest) = Some rest.
Proof. intros H. apply rep_spec. now exists a. Qed.

Lemma rep_length sub : forall tgt rest, rep sub tgt = Some rest -> length tgt = length sub + length rest.
Proof.
  induction sub as [|e r IH]; intros tgt rest; cbn [rep]; [intros [= <-]; reflexivity|].
  destruct tgt as [|t ts]; [discriminate|]. destruct (ematch e t); [|discriminate].
  intros H. apply IH in H. cbn. lia.
Qed.

Lemma reps_exact_nreps es : forall c w, reps_exact c es w <-> nreps (fun a => rep es a = Some []) c w.
Proof.
  induction c as [|c IH]; intros w; cbn; [reflexivity|].
  split; intros (a & b & -> & Ha & Hb); exists a, b; (split; [reflexivity|]); (split; [exact Ha|now apply IH]).
Qed.

Lemma slang_embed : forall items tgt, slang (map embed_item items) tgt <-> lang items tgt.
Proof.
  assert (R : forall sub c w, nreps (slang (map NElem sub)) c w <-> reps_exact c sub w).
  { intros sub c w. rewrite reps_exact_nreps. split; apply nreps_mono; intros a; apply slang_flat. }
  induction items as [|it r IH]; intros tgt; cbn [map slang lang]; [reflexivity|].
  destruct it as [e|mn mx g sub]; cbn [embed_item].
  - split.
    + intros (a & b & -> & (t & -> & Ht) & Hb). exists t, b. split; [reflexivity|]. split; [exact Ht|now apply IH].
    + intros (t & ts & -> & Ht & Hl). exists [t], ts. split; [reflexivity|]. split; [cbn; eauto|now apply IH].
  - split.
    + intros (a & b & -> & Hq & Hr). rewrite ilang_NQ_ex in Hq. destruct Hq as (c & Hb & Hn).
      exists c, a, b. split; [exact Hb|]. split; [reflexivity|]. split; [now apply R|now apply IH].
    + intros (c & pre & post & Hb & -> & Hn & Hl). exists pre, post. split; [reflexivity|]. split; [|now apply IH].
      rewrite ilang_NQ_ex. exists c. split; [exact Hb|now apply R].
Qed.

Lemma well_formed_cons it r : well_formed (it :: r) -> well_formed r.
Proof. intros H mn mx g sub Hin. apply (H mn mx g sub). now right. Qed.

Lemma seq_flat_complete : forall items, well_formed items -> forall k a post,
  lang items a -> k post <> None -> seq (map embed_item items) k (a ++ post) <> None.
Proof.
  induction items as [|it r IH]; intros Hwf k a post Ha Hk; cbn [lang] in Ha.
  - subst a. exact Hk.
  - cbn [map seq]. destruct it as [e|mn mx g sub]; cbn [embed_item].
    + destruct Ha as (t & ts & -> & Ht & Hl). cbn. rewrite Ht. now apply (IH (well_formed_cons _ _ Hwf)).
    + destruct Ha as (c & pre & b & [Hb1 Hb2] & -> & Hn & Hl). rewrite <- app_assoc.
      destruct (Hwf mn mx g sub (or_introl eq_refl)) as [Hs Hmm]. apply reps_exact_nreps in Hn.
      rewrite step_NQ. apply (quant_complete _ _ (fun a => rep sub a = Some [])) with (c := c).
      * intros a0 rest0 Ha0. rewrite arep_flat. now apply rep_app.
      * exact Hn.
      * split; [exact Hb1|]. unfold cap_of. destruct mx as [m|]; [exact Hb2|].
        apply nreps_length in Hn; [rewrite !app_length; lia|]. destruct sub; [congruence|discriminate].
      * now apply (IH (well_formed_cons _ _ Hwf)).
Qed.

Lemma wf_embed : forall items, well_formed items -> wf_items (map embed_item items) = true.
Proof.
  induction items as [|it r IH]; intros Hwf; [reflexivity|].
  cbn [map wf_items]. rewrite (IH (well_formed_cons _ _ Hwf)), andb_true_r.
  destruct it as [e|mn mx g sub]; [reflexivity|]. cbn [embed_item]. rewrite wf_item_NQ.
  destruct (Hwf mn mx g sub (or_introl eq_refl)) as [Hs Hmm].
  assert (Hsub : wf_items (map NElem sub) = true) by (clear; induction sub; [reflexivity|assumption]).
  rewrite Hsub, andb_true_r. destruct mx as [m|]; [now apply Nat.leb_le|].
  apply Nat.ltb_lt. destruct sub; [congruence|]. cbn. lia.
Qed.

Theorem nmatch_flat_exact items : well_formed items -> forall tgt,
  nmatch (map embed_item items) false tgt <> None <-> lang items tgt.
Proof.
  intros Hwf tgt. split.
  - intros H. destruct (nmatch (map embed_item items) false tgt) as [r|] eqn:E; [|congruence].
    apply slang_embed. apply (nmatch_sound _ _ r); [now apply wf_embed|exact E].
  - intros H. unfold nmatch.
    rewrite <- (app_nil_r tgt). apply (seq_flat_complete items Hwf); [exact H|]. cbn. discriminate.
Qed.

(* The flat model is this matcher on the embedded pattern. The flat loops recompute the state after c repetitions from the
   whole target (after_reps c sub tgt) where the nested ones keep the earlier states on a stack: a chain of c states ends
   in after_reps c sub tgt (chain_after_reps). *)
Definition cnts (r : res) : list nat := map (@length nat) (fst r).

Lemma lens_length : forall starts cur acc, length (lens starts cur acc) = length starts + length acc.
Proof.
  induction starts as [|s st IH]; intros cur acc; cbn [lens length]; [reflexivity|].
  rewrite IH. cbn [length]. lia.
Qed.

Lemma cnts_finish starts cur r : cnts (finish starts cur r) = length starts :: cnts r.
Proof. unfold cnts, finish. cbn [fst map]. now rewrite lens_length, Nat.add_0_r. Qed.

Lemma after_reps_S sub : forall c tgt rest, rep sub (after_reps c sub tgt) = Some rest -> after_reps (S c) sub tgt = rest.
Proof.
  induction c as [|c IH]; intros tgt rest H; cbn [after_reps] in *.
  - now rewrite H.
  - destruct (rep sub tgt) as [r1|] eqn:E; [now apply IH|congruence].
Qed.

Lemma after_reps_le sub : forall c tgt, length (after_reps c sub tgt) <= length tgt.
Proof.
  induction c as [|c IH]; intros tgt; cbn [after_reps]; [lia|].
  destruct (rep sub tgt) as [rest|] eqn:E; [|lia]. apply rep_length in E. specialize (IH rest). lia.
Qed.

Section Sim.
  Variable sub : list epat.
  Hypothesis Hsub : sub <> [].
  (* r stands for arep (map NElem sub) and K for the flat continuation: each agrees with its counterpart only pointwise *)
  Variable r : list nat -> option (list nat).
  Hypothesis Hr : forall t, r t = rep sub t.
  Variable K : list nat -> option (list nat).
  Variable k : list nat -> option res.
  Hypothesis HK : forall t, K t = option_map cnts (k t).
  Variable tgt : list nat.

  Lemma chain_after_reps : forall starts cur, chain r starts cur tgt -> after_reps (length starts) sub tgt = cur.
  Proof.
    induction starts as [|s st IH]; intros cur H; cbn in H; [now subst|].
    destruct H as [Hs Hc]. cbn [length]. apply after_reps_S. now rewrite (IH _ Hc), <- Hr.
  Qed.

  (* a repetition shortens the target, so the flat model's fuel lasts *)
  Lemma rep_shorter cur rest : rep sub cur = Some rest -> length rest < length cur.
  Proof. intros E. apply rep_length in E. destruct sub; [congruence|]. cbn [length] in E. lia. Qed.

  Lemma reps_upto_count_reps : forall n fuel starts cur starts' cur', length cur < fuel ->
    reps_upto r n starts cur = (starts', cur') -> length starts' = length starts + count_reps fuel sub cur n.
  Proof.
    induction n as [|n IH]; intros fuel starts cur starts' cur' Hf H; (destruct fuel as [|f]; [lia|]); cbn [count_reps reps_upto] in *.
    - injection H as <- <-. lia.
    - rewrite Hr in H. destruct (rep sub cur) as [rest|] eqn:E; [|injection H as <- <-; lia].
      apply (IH f) in H; [cbn [length] in H; lia|]. apply rep_shorter in E. lia.
  Qed.

  Lemma down_try_down mn : forall starts cur, chain r starts cur tgt ->
    option_map cnts (down k mn starts cur) = try_down K sub tgt mn (length starts).
  Proof.
    induction starts as [|s st IH]; intros cur Hc; pose proof (chain_after_reps _ _ Hc) as E;
      cbn [down try_down length] in *; rewrite E, HK; destruct (k cur) as [r0|]; cbn [option_map].
    - now rewrite cnts_finish.
    - reflexivity.
    - now rewrite cnts_finish.
    - destruct (Nat.leb (S (length st)) mn); [reflexivity|apply IH, Hc].
  Qed.

  (* under cnts the lazy loop depends on the stack only through its height *)
  Lemma up_try_up cap : forall more fuel starts cur, more = cap - length starts -> length cur < fuel ->
    option_map cnts (up r k more starts cur) = try_up K fuel sub tgt cap (length starts) cur.
  Proof.
    induction more as [|m IH]; intros fuel starts cur Hm Hf; (destruct fuel as [|f]; [lia|]); cbn [up try_up]; rewrite HK;
      destruct (k cur) as [r0|]; cbn [option_map].
    - now rewrite cnts_finish.
    - destruct (Nat.leb_spec cap (length starts)); [reflexivity|lia].
    - now rewrite cnts_finish.
    - destruct (Nat.leb_spec cap (length starts)); [lia|]. rewrite Hr.
      destruct (rep sub cur) as [rest|] eqn:E; [|reflexivity].
      apply rep_shorter in E. apply (IH f (cur :: starts)); cbn [length]; lia.
  Qed.

  (* the right-hand side is the IQ branch of match_items, with K for the rest of the pattern *)
  Lemma quant_flat mn cap g :
    option_map cnts (quant r k mn cap g tgt) =
    if g then let n := count_reps (S (length tgt)) sub tgt cap in
              if Nat.ltb n mn then None else try_down K sub tgt mn n
    else let n0 := count_reps (S (length tgt)) sub tgt mn in
         if Nat.ltb n0 mn then None else try_up K (S (length tgt)) sub tgt cap mn (after_reps mn sub tgt).
  Proof.
    unfold quant. destruct g; destruct (reps_upto r _ [] tgt) as [starts cur] eqn:Hu.
    all: destruct (reps_upto_chain r _ [] tgt tgt _ _ eq_refl Hu) as [Hc Hlen].
    all: apply (reps_upto_count_reps _ (S (length tgt))) in Hu; [|lia]; cbn [length Nat.add] in Hlen, Hu; rewrite <- Hu.
    - destruct (Nat.ltb _ mn); [reflexivity|]. now apply down_try_down.
    - destruct (Nat.ltb_spec (length starts) mn) as [|Hge]; [reflexivity|].
      replace mn with (length starts) by lia. rewrite (chain_after_reps _ _ Hc).
      apply up_try_up; [reflexivity|]. rewrite <- (chain_after_reps _ _ Hc). pose proof (after_reps_le sub (length starts) tgt). lia.
  Qed.
End Sim.

(* On flat patterns the nested matcher computes what the flat model computes, repetition counts included. A repeated
   sub-list must not be empty: on IQ 0 (Some 5) true [] and the empty target the flat model's fuel stops the count at 1
   where the nested loop runs to 5. *)
Theorem nmatch_flat_counts items p : (forall mn mx g sub, In (IQ mn mx g sub) items -> sub <> []) -> forall tgt,
  match_items items p tgt = option_map cnts (nmatch (map embed_item items) p tgt).
Proof.
  unfold nmatch. induction items as [|it r IH]; intros Hne tgt.
  - cbn. unfold final. now destruct (p || _).
  - specialize (IH (fun mn mx g sub H => Hne mn mx g sub (or_intror H))).
    destruct it as [e|mn mx g sub]; cbn [map embed_item seq match_items].
    + cbn [step]. destruct tgt as [|t ts]; [reflexivity|]. destruct (ematch e t); [apply IH|reflexivity].
    + rewrite step_NQ. symmetry.
      apply (quant_flat sub (Hne mn mx g sub (or_introl eq_refl)) _ (arep_flat sub)). exact IH.
Qed.

Corollary nmatch_flat_agrees items : well_formed items -> forall tgt,
  nmatch (map embed_item items) false tgt <> None <-> match_items items false tgt <> None.
Proof.
  intros Hwf tgt. rewrite (nmatch_flat_counts items false (fun mn mx g sub H => proj1 (Hwf mn mx g sub H))).
  now destruct (nmatch _ false tgt).
Qed.
