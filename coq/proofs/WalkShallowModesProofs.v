(* C14: with recursion the extended loops are those of models/Walk.v; without it they visit exactly the direct children
   that pass the filter - the three modes agree on that one level. *)
From Coq Require Import List Lia.
From PF Require Import models.Walk models.WalkShallowModes.

Lemma run_both_r_true : forall f back s, run_both_r f back true s = run_both f back s.
Proof.
  induction f as [|f IH]; intros back s; [reflexivity|]. cbn [run_both_r run_both].
  destruct s as [|[[[i ok kids]|]|[i ok kids]] s]; try reflexivity; try apply IH; destruct ok; rewrite ?IH; reflexivity.
Qed.

Lemma run_both_r_false_level : forall kids f back, 2 * length kids <= f ->
  run_both_r f back false (map SEnter kids) = level_both kids.
Proof.
  induction kids as [|k kids IH]; intros f back Hf; [destruct f; reflexivity|].
  cbn [length] in Hf. destruct f as [|f]; [lia|]. cbn [map run_both_r].
  destruct k as [[i ok ks]|]; cbn [level_both flat_map].
  - destruct ok; cbn [app].
    + destruct f as [|f]; [lia|]. cbn [run_both_r]. f_equal. f_equal. apply IH. lia.
    + apply IH. lia.
  - apply IH. lia.
Qed.

Lemma run_leave_level : forall kids f back, length kids <= f -> run_leave f back (leave_items kids) = level kids.
Proof.
  induction kids as [|k kids IH]; intros f back Hf; [destruct f; reflexivity|].
  cbn [length] in Hf. destruct f as [|f]; [lia|]. destruct k as [[i ok ks]|]; cbn [leave_items flat_map app level].
  - cbn [run_leave]. fold (leave_items kids). destruct ok; cbn [app]; [f_equal|]; apply IH; lia.
  - fold (leave_items kids). apply IH. lia.
Qed.

(* the three modes agree without recursion: a selection that keeps exactly one of the two events of every node - the entry
   events of 'both', or its leave events - leaves the 'enter' walk, which is the 'leave' walk *)
Lemma level_both_half (q : nat * bool -> bool) kids : (forall i, q (i, false) = negb (q (i, true))) ->
  map fst (filter q (level_both kids)) = level kids.
Proof.
  intros Hq. induction kids as [|[[i ok ks]|] kids IH]; cbn [level_both level flat_map]; [reflexivity| |exact IH].
  destruct ok; cbn [app filter]; [|exact IH].
  rewrite Hq. destruct (q (i, true)); cbn [negb map fst]; f_equal; exact IH.
Qed.
