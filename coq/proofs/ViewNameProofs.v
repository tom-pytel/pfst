(* C03: view['name'] finds the first element of the view that defines the name, and hands on its index relative to the view. *)
From Coq Require Import List Arith Lia.
From PF Require Import models.ViewName proofs.ListFacts.

Lemma find_name_spec name : forall l,
  match find_name name l with
  | Some k => nth_error l k = Some (Some name) /\ forall j, j < k -> nth_error l j <> Some (Some name)
  | None => forall j, nth_error l j <> Some (Some name)
  end.
Proof.
  induction l as [|x r IH]; cbn [find_name]; [intros [|j]; discriminate|].
  destruct (match x with Some n => Nat.eqb n name | None => false end) eqn:E.
  - split; [|intros j Hj; lia]. destruct x as [n|]; [|discriminate]. apply Nat.eqb_eq in E. now subst.
  - assert (Hx : x <> Some name) by (intros ->; rewrite Nat.eqb_refl in E; discriminate).
    destruct (find_name name r) as [k|]; cbn [option_map].
    + destruct IH as [H1 H2]. split; [exact H1|]. intros [|j] Hj; cbn [nth_error]; [congruence|apply H2; lia].
    + intros [|j]; cbn [nth_error]; [congruence|apply IH].
Qed.

Lemma nth_error_view names start stop off k : k < stop - start ->
  nth_error (view_slice names start stop off) k = nth_error names (start + off + k).
Proof. intros Hk. unfold view_slice. rewrite nth_error_firstn by assumption. apply nth_error_skipn. Qed.

(* the index handed on is view-relative: it lies in the view, the element of the REAL field there defines the name, and no element
   of the view in front of it does; a name that no element of the view defines is refused, whatever the rest of the field holds *)
Theorem name_index_spec names start stop off name :
  match name_index names start stop off name with
  | Some r => r < stop - start /\ nth_error names (start + off + r) = Some (Some name)
              /\ forall j, j < r -> nth_error names (start + off + j) <> Some (Some name)
  | None => forall j, j < stop - start -> nth_error names (start + off + j) <> Some (Some name)
  end.
Proof.
  unfold name_index, real_index. pose proof (find_name_spec name (view_slice names start stop off)) as F.
  destruct (find_name name (view_slice names start stop off)) as [k|]; cbn [option_map].
  - destruct F as [H1 H2]. replace (start + off + k - start - off) with k by lia.
    assert (Hk : k < stop - start).
    { assert (L : k < length (view_slice names start stop off)) by (apply nth_error_Some; congruence).
      unfold view_slice in L. rewrite firstn_length in L. lia. }
    repeat split.
    + exact Hk.
    + now rewrite <- (nth_error_view names start stop off k Hk).
    + intros j Hj. rewrite <- (nth_error_view names start stop off j) by lia. now apply H2.
  - intros j Hj. rewrite <- (nth_error_view names start stop off j) by assumption. apply F.
Qed.
