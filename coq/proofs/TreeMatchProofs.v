(* Proofs about models/TreeMatch.v: matching against the pattern built from a tree is equality with that tree; a wildcard
   matches whatever stands in its place. *)
From Coq Require Import List Bool ZArith.
From PF Require Import models.TreeMatch proofs.ListFacts.
Import ListNotations.

Lemma ln_eqb_eq a : forall b, ln_eqb a b = true <-> a = b.
Proof.
  induction a as [|x a IH]; intros [|y b]; cbn [ln_eqb]; split; intros H; try reflexivity; try discriminate.
  - apply andb_true_iff in H as [H1 H2]. apply N.eqb_eq in H1. apply IH in H2. now subst.
  - injection H as -> ->. rewrite N.eqb_refl. cbn [andb]. now apply IH.
Qed.

Lemma prim_eqb_eq a b : prim_eqb a b = true <-> a = b.
Proof.
  split.
  - destruct a, b; cbn [prim_eqb]; intros H; try discriminate; try reflexivity; f_equal.
    1: now apply Bool.eqb_prop.
    1: now apply Z.eqb_eq.
    all: now apply ln_eqb_eq.
  - intros <-. destruct a; cbn [prim_eqb]; try reflexivity.
    1: apply Bool.eqb_reflx.
    1: apply Z.eqb_refl.
    all: now apply ln_eqb_eq.
Qed.

Section TreeInd.
  Variable P : tree -> Prop.
  Hypothesis HL : forall p, P (Leaf p).
  Hypothesis HN : forall k kids, Forall P kids -> P (Node k kids).
  Fixpoint tree_ind' (t : tree) : P t :=
    match t with
    | Leaf p => HL p
    | Node k kids => HN k kids (Forall_all tree_ind' kids)
    end.
End TreeInd.

(* the list loop inside tmatch *)
Definition go_match := fix go (ps : list ptree) (ts : list tree) : bool :=
  match ps, ts with [] , [] => true | p' :: ps', t' :: ts' => tmatch p' t' && go ps' ts' | _, _ => false end.

Lemma tmatch_node k ps k' ts : tmatch (TNode k ps) (Node k' ts) = Nat.eqb k k' && go_match ps ts.
Proof. reflexivity. Qed.

Lemma go_match_eq ps : Forall (fun p => forall t, tmatch (of_tree p) t = true <-> p = t) ps ->
  forall ts, go_match (map of_tree ps) ts = true <-> ps = ts.
Proof.
  induction 1 as [|p ps Hp _ IH]; intros [|t ts]; cbn [map go_match]; try (split; [discriminate|congruence]).
  - split; reflexivity.
  - rewrite andb_true_iff, Hp, IH. split; [intros [-> ->]; reflexivity|intros [= -> ->]; auto].
Qed.

Theorem tmatch_eq : forall p t, tmatch (of_tree p) t = true <-> p = t.
Proof.
  induction p as [a|k ps IH] using tree_ind'; intros [b|k' ts]; cbn [of_tree].
  - cbn [tmatch]. rewrite prim_eqb_eq. split; congruence.
  - split; discriminate.
  - split; discriminate.
  - rewrite tmatch_node, andb_true_iff, Nat.eqb_eq, (go_match_eq ps IH).
    split; [intros [-> ->]; reflexivity|intros [= -> ->]; auto].
Qed.

Corollary tmatch_refl t : tmatch (of_tree t) t = true.
Proof. now apply tmatch_eq. Qed.

Corollary tmatch_neq p t : p <> t -> tmatch (of_tree p) t = false.
Proof. intros Hne. apply not_true_iff_false. now rewrite tmatch_eq. Qed.

Theorem wildcard_accepts_anything t : tmatch TAny t = true.
Proof. reflexivity. Qed.

Theorem wildcard_at_path : forall path t new, tmatch (any_at path (of_tree t)) (put_at path new t) = true.
Proof.
  induction path as [|i rest IH]; intros t new; [reflexivity|].
  destruct t as [p|k kids]; [exact (tmatch_refl (Leaf p))|].
  cbn [of_tree any_at put_at]. rewrite tmatch_node, Nat.eqb_refl. cbn [andb].
  revert i. induction kids as [|x l IHl]; intros i; cbn [map]; [reflexivity|].
  destruct i as [|i']; cbn [go_match].
  - rewrite IH. (* the children behind the path match themselves, as the node they form does *)
    exact (tmatch_refl (Node 0 l)).
  - rewrite tmatch_refl. cbn [andb]. apply IHl.
Qed.

Example falsy_leaves_differ :
  map (fun t => tmatch (of_tree (Node 5 [Leaf VNone])) (Node 5 [t])) [Leaf VNone; Leaf (VInt 0); Leaf (VBool false); Leaf (VStr []); Leaf (VBytes []); Leaf (VNum [48%N; 46%N; 48%N]); Leaf VDots]
  = [true; false; false; false; false; false; false]
  /\ map (fun t => tmatch (TNode 5 [TAny]) (Node 5 [t])) [Leaf VNone; Leaf (VInt 0); Leaf VDots] = [true; true; true].
Proof. split; reflexivity. Qed.
