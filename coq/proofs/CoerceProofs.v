(* Coercion keeps the leaves: when an expression coerces to a pattern (or a pattern to an expression) the names and
   constants of the result are those of the operand, in the same order; the simple forms go there and back unchanged. *)
From Coq Require Import List Bool.
From PF Require Import models.Coerce proofs.ListFacts.

Section ExInd.
  Variable P : ex -> Prop.
  Hypothesis HName : forall s, P (EName s).
  Hypothesis HConst : forall c, P (EConst c).
  Hypothesis HAttr : forall e a, P e -> P (EAttr e a).
  Hypothesis HSeq : forall l, Forall P l -> P (ESeq l).
  Hypothesis HDict : forall kvs, Forall (fun kv => match fst kv with Some k => P k | None => True end /\ P (snd kv)) kvs -> P (EDict kvs).
  Hypothesis HCall : forall f args kws, P f -> Forall P args -> Forall (fun kw => P (snd kw)) kws -> P (ECall f args kws).
  Hypothesis HBin : forall o a b, P a -> P b -> P (EBin o a b).
  Hypothesis HStar : forall e, P e -> P (EStar e).
  Hypothesis HNeg : forall e, P e -> P (ENeg e).
  Hypothesis HOther : forall k kids, Forall P kids -> P (EOther k kids).

  Fixpoint ex_ind' (e : ex) : P e :=
    match e with
    | EName s => HName s
    | EConst c => HConst c
    | EAttr e' a => HAttr e' a (ex_ind' e')
    | ESeq l => HSeq l (Forall_all ex_ind' l)
    | EDict kvs =>
        HDict kvs (Forall_all (fun kv => conj (match fst kv as o return (match o with Some k => P k | None => True end : Prop) with
                                                | Some k => ex_ind' k
                                                | None => I
                                                end) (ex_ind' (snd kv))) kvs)
    | ECall f args kws => HCall f args kws (ex_ind' f) (Forall_all ex_ind' args) (Forall_all (fun kw => ex_ind' (snd kw)) kws)
    | EBin o a b => HBin o a b (ex_ind' a) (ex_ind' b)
    | EStar e' => HStar e' (ex_ind' e')
    | ENeg e' => HNeg e' (ex_ind' e')
    | EOther k kids => HOther k kids (Forall_all ex_ind' kids)
    end.
End ExInd.

Lemma unnm_nm s : unnm (nm s) = s.
Proof. destruct s; reflexivity. Qed.

Lemma opt_all_cons {A} (o : option A) l r :
  opt_all (o :: l) = Some r -> exists x r', o = Some x /\ opt_all l = Some r' /\ r = x :: r'.
Proof.
  cbn. fold (opt_all l). destruct o as [x|]; [|discriminate]. destruct (opt_all l) as [r'|]; [|discriminate].
  intros [= <-]. eauto.
Qed.

Lemma opt_all_Forall2 {A B} (f : A -> option B) l : forall r, opt_all (map f l) = Some r -> Forall2 (fun a b => f a = Some b) l r.
Proof.
  induction l as [|a l IH]; intros r H; [injection H as <-; constructor|].
  apply opt_all_cons in H as (b & r' & E & Hr & ->). constructor; auto.
Qed.

Lemma opt_all_flat_map {A B C} {f : A -> option B} {la : A -> list C} {lb : B -> list C} {l r} :
  Forall (fun a => forall b, f a = Some b -> lb b = la a) l -> opt_all (map f l) = Some r ->
  flat_map lb r = flat_map la l.
Proof.
  intros HF H. apply opt_all_Forall2 in H.
  induction H as [|a b l r Hab _ IH]; inversion_clear HF; cbn [flat_map]; [reflexivity|].
  f_equal; auto.
Qed.

(* the guard of the `|` case, with the guarded result a variable: the case analysis does not carry e2p along *)
Lemma no_star_inv {A} (r l : ex) (X : option A) p :
  match r, l with EStar _, _ | _, EStar _ => None | _, _ => X end = Some p -> X = Some p.
Proof. destruct r; try discriminate; destruct l; try discriminate; exact (fun H => H). Qed.

Theorem e2p_leaves e : forall p, e2p e = Some p -> pleaves p = eleaves e.
Proof.
  induction e as [s|c|e a IH|l IH|kvs IH|f args kws IHf IHa IHk|o a b IHa IHb|e IH|e IH|k kids IH] using ex_ind'; intros p H.
  - injection H as <-. cbn. now rewrite unnm_nm.
  - destruct c; simpl in H; try discriminate; injection H as <-; reflexivity.
  - cbn [e2p] in H. destruct (attr_ok (EAttr e a)); [|discriminate]. injection H as <-. reflexivity.
  - cbn [e2p] in H. destruct (opt_all (map e2p l)) as [ps|] eqn:Hps; [|discriminate]. injection H as <-.
    exact (opt_all_flat_map IH Hps).
  - cbn [e2p] in H.
    set (go := fix go (kvs : list (option ex * ex)) : option (list ex * list pat * option nat) := _) in H.
    destruct (go kvs) as [[[ks ps] rest]|] eqn:Hgo; [|discriminate]. injection H as <-.
    cbn [pleaves eleaves].
    revert ks ps rest Hgo.
    induction IH as [|[[k|] v] r [Hk Hv] _ IHr]; intros ks ps rest Hgo; cbn [go] in Hgo.
    + injection Hgo as <- <- <-. reflexivity.
    + destruct (key_ok k); [|discriminate].
      destruct (e2p v) as [q|] eqn:Hq; [|discriminate].
      destruct (go r) as [[[ks' ps'] rest']|]; [|discriminate].
      injection Hgo as <- <- <-.
      cbn [flat_map fst snd]. now rewrite <- !app_assoc, (Hv q Hq), (IHr ks' ps' rest').
    + destruct v, r; try discriminate.
      destruct (Nat.eqb s 0); [discriminate|]. injection Hgo as <- <- <-. reflexivity.
  - cbn [e2p] in H. destruct (_ && _); [|discriminate].
    destruct (opt_all (map e2p args)) as [ps|] eqn:Hps; [|discriminate].
    destruct (opt_all (map (fun kw => e2p (snd kw)) kws)) as [kps|] eqn:Hkps; [|discriminate].
    injection H as <-. cbn [pleaves eleaves]. f_equal.
    rewrite (opt_all_flat_map IHa Hps). f_equal.
    apply opt_all_Forall2 in Hkps.
    induction Hkps as [|[n v] q r kps Hq _ IHr]; inversion_clear IHk; [reflexivity|].
    cbn [map flat_map fst snd app]. f_equal. f_equal; auto.
  - destruct o; cbn [e2p] in H; try discriminate.
    + destruct (_ && _); [|discriminate]. injection H as <-. reflexivity.
    + destruct (_ && _); [|discriminate]. injection H as <-. reflexivity.
    + (* a | b: the right operand is appended to a MatchOr on the left, or both make a new one *)
      apply no_star_inv in H.
      destruct (e2p b) as [pr|]; [|discriminate]. destruct (e2p a) as [pl|]; [|discriminate].
      cbn [eleaves]. rewrite <- (IHa pl eq_refl), <- (IHb pr eq_refl).
      destruct pl; injection H as <-; cbn [pleaves flat_map]; rewrite ?flat_map_app; cbn [flat_map];
        now rewrite ?app_nil_r.
  - cbn [e2p] in H. destruct e; try discriminate. injection H as <-. cbn. now rewrite unnm_nm.
  - cbn [e2p] in H. destruct (_ || _); [|discriminate]. injection H as <-. reflexivity.
  - discriminate.
Qed.

Section PatInd.
  Variable P : pat -> Prop.
  Hypothesis HAs : forall n sub, match sub with Some q => P q | None => True end -> P (PAs n sub).
  Hypothesis HValue : forall e, P (PValue e).
  Hypothesis HSingle : forall c, P (PSingle c).
  Hypothesis HSeq : forall l, Forall P l -> P (PSeq l).
  Hypothesis HMap : forall keys pats rest, Forall P pats -> P (PMap keys pats rest).
  Hypothesis HClass : forall cls ps kwa kwp, Forall P ps -> Forall P kwp -> P (PClass cls ps kwa kwp).
  Hypothesis HOr : forall l, Forall P l -> P (POr l).
  Hypothesis HStar : forall n, P (PStar n).

  Fixpoint pat_ind' (p : pat) : P p :=
    match p with
    | PAs n sub => HAs n sub (match sub as s return (match s with Some q => P q | None => True end : Prop) with Some q => pat_ind' q | None => I end)
    | PValue e => HValue e
    | PSingle c => HSingle c
    | PSeq l => HSeq l (Forall_all pat_ind' l)
    | PMap keys pats rest => HMap keys pats rest (Forall_all pat_ind' pats)
    | PClass cls ps kwa kwp => HClass cls ps kwa kwp (Forall_all pat_ind' ps) (Forall_all pat_ind' kwp)
    | POr l => HOr l (Forall_all pat_ind' l)
    | PStar n => HStar n
    end.
End PatInd.

Lemma opt_all_length {A B} (f : A -> option B) l r : opt_all (map f l) = Some r -> length r = length l.
Proof. intros H. apply opt_all_Forall2 in H. induction H; cbn [length]; congruence. Qed.

Lemma fold_or_leaves r : forall a, eleaves (fold_left (fun acc x => EBin OBitOr acc x) r a) = eleaves a ++ flat_map eleaves r.
Proof.
  induction r as [|x r IH]; intros a; cbn [fold_left flat_map]; [now rewrite app_nil_r|].
  rewrite IH. cbn [eleaves]. now rewrite <- app_assoc.
Qed.

Theorem p2e_leaves p : forall e, p2e p = Some e -> eleaves e = pleaves p.
Proof.
  induction p as [n sub IH|e0|c|l IH|keys pats rest IH|cls ps kwa kwp IHp IHk|l IH|n] using pat_ind'; intros e H.
  - destruct sub; [discriminate|]. injection H as <-. reflexivity.
  - injection H as <-. reflexivity.
  - injection H as <-. reflexivity.
  - cbn [p2e] in H. destruct (opt_all (map p2e l)) as [es|] eqn:Hes; [|discriminate]. injection H as <-.
    exact (opt_all_flat_map IH Hes).
  - cbn [p2e] in H. destruct (opt_all (map p2e pats)) as [vs|] eqn:Hvs; [|discriminate].
    destruct (Nat.eqb (length keys) (length vs)); [|discriminate]. injection H as <-.
    cbn [eleaves pleaves]. rewrite flat_map_app. f_equal; [|now destruct rest].
    (* values and patterns correspond one to one, so both sides stop at the same key: the lengths play no part *)
    apply opt_all_Forall2 in Hvs. revert keys.
    induction Hvs as [|q v pats vs Hv _ IHr]; inversion_clear IH; intros [|k keys]; try reflexivity.
    cbn [map combine flat_map fst snd]. rewrite <- app_assoc. f_equal. f_equal; auto.
  - cbn [p2e] in H. destruct (opt_all (map p2e ps)) as [a|] eqn:Ha; [|discriminate].
    destruct (opt_all (map p2e kwp)) as [k|] eqn:Hk; [|discriminate].
    destruct (Nat.eqb (length kwa) (length k)); [|discriminate]. injection H as <-.
    cbn [eleaves pleaves]. f_equal. rewrite (opt_all_flat_map IHp Ha). f_equal.
    apply opt_all_Forall2 in Hk. revert kwa.
    induction Hk as [|q v kwp k Hv _ IHr]; inversion_clear IHk; intros [|n kwa]; try reflexivity.
    cbn [map combine flat_map fst snd unnm app]. f_equal. f_equal; auto.
  - cbn [p2e] in H. destruct (opt_all (map p2e l)) as [[|a r]|] eqn:Hes; try discriminate.
    injection H as <-. rewrite fold_or_leaves. exact (opt_all_flat_map IH Hes).
  - injection H as <-. reflexivity.
Qed.

Theorem other_expression_is_refused k kids : e2p (EOther k kids) = None.
Proof. reflexivity. Qed.

Theorem simple_round_trip e p : e2p e = Some p -> (match e with EName _ | EConst _ | EAttr _ _ | ENeg _ => True | _ => False end) -> p2e p = Some e.
Proof.
  destruct e; intros H Hk; try contradiction.
  - injection H as <-. simpl. rewrite unnm_nm. reflexivity.
  - destruct c; simpl in H; try discriminate; injection H as <-; reflexivity.
  - cbn [e2p] in H. destruct (attr_ok (EAttr e a)); [|discriminate]. injection H as <-. reflexivity.
  - cbn [e2p] in H. destruct (real_nonneg e || imag_nonneg e); [|discriminate]. injection H as <-. reflexivity.
Qed.
