(* C16: which names the classification of scope_symbols enters in each dictionary, read off the events; props/C16.v
   compares this with the compiler's rule. *)
From Coq Require Import List Bool Arith.
From PF Require Import models.Symbols.
Import ListNotations.

Lemma mem_In n l : mem n l = true <-> In n l.
Proof. unfold mem. rewrite existsb_exists. setoid_rewrite Nat.eqb_eq. firstorder congruence. Qed.

Lemma mem_false n l : mem n l = false <-> ~ In n l.
Proof. rewrite <- mem_In. destruct (mem n l); split; intros H; congruence. Qed.

Lemma add_In n m l : In m (add n l) <-> m = n \/ In m l.
Proof.
  unfold add. destruct (mem n l) eqn:E; [apply mem_In in E|rewrite in_app_iff; cbn [In]]; intuition congruence.
Qed.

Lemma keys_acc (sel : kind -> bool) (evs : list ev) : forall acc n,
  In n (fold_left (fun acc (e : ev) => if sel (fst e) then add (snd e) acc else acc) evs acc) <->
  In n acc \/ In n (map snd (filter (fun e => sel (fst e)) evs)).
Proof.
  induction evs as [|[k m] evs IH]; intros acc n; cbn [fold_left filter fst snd]; [cbn [map In]; tauto|].
  rewrite IH. destruct (sel k); cbn [map In snd]; rewrite ?add_In; intuition congruence.
Qed.

Lemma keys_In sel evs n : In n (keys sel evs) <-> exists k, sel k = true /\ In (k, n) evs.
Proof.
  unfold keys. rewrite keys_acc, in_map_iff. cbn [In]. split.
  - intros [[]|([k m] & <- & H)]. apply filter_In in H. now exists k.
  - intros (k & S & H). right. exists (k, n). split; [reflexivity|]. now apply filter_In.
Qed.

Lemma keys_kind k evs n : In n (keys (kind_eqb k) evs) <-> In (k, n) evs.
Proof.
  rewrite keys_In. split.
  - intros (k' & E & H). destruct k, k'; cbn in E; try discriminate; exact H.
  - intros H. exists k. split; [destruct k; reflexivity|exact H].
Qed.

Lemma keys_store evs n : In n (keys is_store evs) <-> In (KStore, n) evs \/ In (KWalrus, n) evs.
Proof.
  rewrite keys_In. split.
  - intros (k & E & H). destruct k; cbn in E; try discriminate; auto.
  - intros [H|H]; [exists KStore|exists KWalrus]; split; auto.
Qed.

Lemma keys_load comp evs n :
  In n (keys (fun k => match k with KLoad => true | KWalrus => comp | _ => false end) evs) <->
  In (KLoad, n) evs \/ (comp = true /\ In (KWalrus, n) evs).
Proof.
  rewrite keys_In. split.
  - intros (k & E & H). destruct k; try discriminate; auto.
  - intros [H|[E H]]; [exists KLoad|exists KWalrus]; auto.
Qed.

Lemma ev_dec (a b : ev) : {a = b} + {a <> b}.
Proof. decide equality; [apply Nat.eq_dec|decide equality]. Qed.

Lemma store_In comp evs n : In n (s_store (classify comp evs)) <-> occurs KStore n evs \/ occurs KWalrus n evs.
Proof. apply keys_store. Qed.

Lemma global_In comp evs n : In n (s_global (classify comp evs)) <-> occurs KGlobal n evs.
Proof. apply keys_kind. Qed.

Lemma nonlocal_In comp evs n : In n (s_nonlocal (classify comp evs)) <-> occurs KNonlocal n evs.
Proof. apply keys_kind. Qed.

Lemma local_In comp evs n : In n (s_local (classify comp evs)) <->
  (occurs KStore n evs \/ occurs KWalrus n evs) /\ ~ occurs KGlobal n evs /\ ~ occurs KNonlocal n evs /\
  ~ (comp = true /\ occurs KWalrus n evs).
Proof.
  unfold classify, s_local, occurs.
  rewrite filter_In, keys_store, negb_true_iff, !orb_false_iff, !mem_false, !keys_kind.
  destruct comp; rewrite ?keys_kind; cbn [In]; intuition congruence.
Qed.

Lemma free_In_fun evs n : In n (s_free (classify false evs)) <->
  occurs KLoad n evs /\ ~ (occurs KStore n evs \/ occurs KWalrus n evs) /\ ~ occurs KDel n evs /\ ~ declared n evs.
Proof.
  unfold classify, s_free, declared, occurs.
  rewrite filter_In, negb_true_iff, mem_false, !in_app_iff, keys_store, !keys_kind, keys_load.
  intuition congruence.
Qed.

Lemma free_In_comp evs n : In n (s_free (classify true evs)) <->
  (occurs KLoad n evs \/ occurs KWalrus n evs) /\
  ~ ((occurs KStore n evs \/ occurs KWalrus n evs) /\ ~ occurs KWalrus n evs).
Proof.
  unfold classify, s_free, occurs.
  rewrite filter_In, negb_true_iff, mem_false, filter_In, negb_true_iff, mem_false, keys_store, !keys_kind, keys_load.
  tauto.
Qed.

Example symbols_nonvacuous :
  (* def f(arg): global g; nonlocal q; loc = arg; del dd; q += free_; g = 1   ->  events in walk order, names as numbers:
     arg=0 g=1 q=2 loc=3 dd=4 free_=5 *)
  let evs := [(KStore, 0); (KGlobal, 1); (KNonlocal, 2); (KStore, 3); (KLoad, 0); (KDel, 4); (KLoad, 2); (KStore, 2); (KLoad, 5); (KStore, 1)] in
  let s := classify false evs in
  s_local s = [0; 3] /\ s_free s = [5] /\ s_store s = [0; 3; 2; 1] /\ s_load s = [0; 2; 5] /\ s_del s = [4] /\
  (* [y := x for x in it]  as root: it=0 y=1 x=2 *)
  let c := classify true [(KLoad, 0); (KWalrus, 1); (KLoad, 2); (KStore, 2)] in
  s_local c = [2] /\ s_free c = [0; 1] /\ s_load c = [0; 2] /\ s_store c = [1; 2].
Proof. repeat split; reflexivity. Qed.
