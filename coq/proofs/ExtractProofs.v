(* Copy / cut on the text: putting the cut lines back at the cut point restores the line list; every character of the
   copied span is found at its shifted position; dedent removes white space only and is inverted by indent. *)
From Coq Require Import List NArith Bool Arith Lia.
From PF Require Import kernel.PyBase kernel.Text models.Extract proofs.ListFacts proofs.TextProofs.
Import ListNotations.

Theorem cut_put_back_text L ln col eln ecol :
  valid_loc L ln col eln ecol ->
  let '(piece, rest) := cut_text L ln col eln ecol in
  put_spec rest piece ln col ln col = L.
Proof.
  intros (Hle & Heln & Hcol & _ & Hsame). unfold cut_text.
  (* what is left is one line, made of the head of line ln and the tail of line eln *)
  change (put_spec L [] ln col eln ecol)
    with (firstn ln L ++ (firstn col (lineAt L ln) ++ skipn ecol (lineAt L eln)) :: skipn (S eln) L).
  rewrite put_spec_at by (apply firstn_length_le; lia).
  rewrite firstn_app_exact, skipn_app_exact by (apply firstn_length_le, Hcol).
  unfold get_src. destruct (Nat.eqb_spec eln ln) as [->|He].
  - cbn [glue]. rewrite <- split_range by auto.
    symmetry. apply split_at. lia.
  - rewrite glue_pieces, !firstn_skipn. cbn [app]. rewrite <- app_assoc.
    symmetry. apply split_at2. lia.
Qed.

Definition pos_in (ln col eln ecol : nat) (p : nat * nat) : Prop :=
  let '(pl, pc) := p in
  ln <= pl <= eln /\ (pl = ln -> col <= pc) /\ (pl = eln -> pc < ecol).

Theorem copy_char_faithful L ln col eln ecol p :
  valid_loc L ln col eln ecol -> pos_in ln col eln ecol p ->
  char_at (copy_text L ln col eln ecol) (shift_pos ln col p) = char_at L p.
Proof.
  intros (Hle & Heln & _) Hp. destruct p as [pl pc]. destruct Hp as (Hpl & Hs & He).
  unfold char_at, copy_text, get_src, shift_pos. cbn [fst snd].
  destruct (Nat.eqb_spec eln ln) as [->|Hne].
  - assert (pl = ln) as -> by lia. specialize (Hs eq_refl). specialize (He eq_refl).
    rewrite Nat.eqb_refl, Nat.sub_diag. unfold lineAt at 1. cbn [nth].
    rewrite nth_error_firstn, nth_error_skipn by lia. f_equal. lia.
  - destruct (Nat.eqb_spec pl ln) as [->|Hpln].
    + rewrite Nat.sub_diag. unfold lineAt at 1. cbn [nth].
      rewrite nth_error_skipn. f_equal. specialize (Hs eq_refl). lia.
    + replace (pl - ln) with (S (pl - ln - 1)) by lia. unfold lineAt at 1. cbn [nth].
      assert (HM : length (firstn (eln - ln - 1) (skipn (S ln) L)) = eln - ln - 1)
        by (apply firstn_length_le; rewrite skipn_length; lia).
      destruct (Nat.eq_dec pl eln) as [->|Hple].
      * rewrite app_nth2, HM, Nat.sub_diag by lia. cbn [nth].
        apply nth_error_firstn. now apply He.
      * rewrite app_nth1 by lia. f_equal. unfold lineAt.
        rewrite nth_firstn, nth_skipn by lia. f_equal. lia.
Qed.

Lemma line_starts_with_app p l : line_starts_with p (p ++ l) = true.
Proof. induction p as [|a p IH]; simpl; [reflexivity|]. rewrite N.eqb_refl. exact IH. Qed.

Lemma line_starts_with_split p l : line_starts_with p l = true -> l = p ++ skipn (length p) l.
Proof.
  revert l. induction p as [|a p IH]; intros l H; [reflexivity|].
  destruct l as [|b l]; [discriminate|]. simpl in H. apply andb_true_iff in H. destruct H as [Hab Hp].
  apply N.eqb_eq in Hab. subst b. simpl. f_equal. apply IH. exact Hp.
Qed.

Definition strip_ws (l : pyline) : pyline := skipn (ws_len l) l.

Lemma ws_len_le l : ws_len l <= length l.
Proof. induction l as [|c l IH]; simpl; [lia|]. destruct (is_ws c); simpl; lia. Qed.

Lemma strip_skipn l k : k <= ws_len l -> strip_ws (skipn k l) = strip_ws l.
Proof.
  unfold strip_ws. revert k. induction l as [|c l IH]; intros [|k] Hk; try reflexivity.
  cbn [ws_len skipn] in *. destruct (is_ws c); [apply IH|]; lia.
Qed.

Lemma ws_len_app_all d l : forallb is_ws d = true -> ws_len (d ++ l) = length d + ws_len l.
Proof.
  induction d as [|c d IH]; cbn [forallb app ws_len length]; [reflexivity|].
  intros [Hc Hd]%andb_true_iff. now rewrite Hc, IH.
Qed.

Lemma ws_len_all d : forallb is_ws d = true -> ws_len d = length d.
Proof. intros H. rewrite <- (app_nil_r d) at 1. rewrite ws_len_app_all by exact H. apply Nat.add_0_r. Qed.

Lemma dedent_amount_ne d l : l <> [] ->
  dedent_amount d l = if line_starts_with d l || Nat.leb (length d) (ws_len l) then length d else ws_len l.
Proof. destruct l; [congruence|reflexivity]. Qed.

Lemma dedent_line_skipn d l : dedent_line d l = skipn (dedent_amount d l) l.
Proof. destruct l as [|c l]; [reflexivity|]. cbn [dedent_line dedent_amount]. now destruct (_ || _). Qed.

Lemma dedent_amount_le d l : forallb is_ws d = true -> dedent_amount d l <= ws_len l.
Proof.
  intros Hd. destruct l as [|c l]; [reflexivity|].
  rewrite dedent_amount_ne by discriminate.
  destruct (line_starts_with d (c :: l)) eqn:Hs; cbn [orb].
  - rewrite (line_starts_with_split d _ Hs) at 1. rewrite ws_len_app_all by exact Hd. lia.
  - destruct (Nat.leb_spec (length d) (ws_len (c :: l))); lia.
Qed.

Theorem indent_dedent_line d l : l = [] \/ line_starts_with d l = true -> indent_line d (dedent_line d l) = l \/ dedent_line d l = [].
Proof.
  intros [->|Hs]; [left; reflexivity|].
  destruct l as [|c l]; [left; reflexivity|].
  rewrite dedent_line_skipn, dedent_amount_ne, Hs by discriminate. cbn [orb].
  destruct (skipn (length d) (c :: l)) as [|x r] eqn:Hr; [right; reflexivity|left].
  unfold indent_line. rewrite <- Hr. symmetry. apply line_starts_with_split. exact Hs.
Qed.

Theorem dedent_indent_line d l : dedent_line d (indent_line d l) = l.
Proof.
  unfold indent_line. destruct l as [|c l]; [reflexivity|].
  rewrite dedent_line_skipn, dedent_amount_ne, line_starts_with_app by (destruct d; discriminate).
  cbn [orb]. now apply skipn_app_exact.
Qed.

Lemma map_lns_nth f lns i L k : nth_error (map_lns f lns i L) k =
  option_map (fun l => if existsb (Nat.eqb (i + k)) lns then f l else l) (nth_error L k).
Proof.
  revert i k. induction L as [|l L IH]; intros i k; [destruct k; reflexivity|].
  destruct k as [|k]; simpl; [rewrite Nat.add_0_r; reflexivity|].
  rewrite IH. replace (S i + k) with (i + S k) by lia. reflexivity.
Qed.

Lemma map_lns_length f lns i L : length (map_lns f lns i L) = length L.
Proof. revert i. induction L as [|l L IH]; intros i; simpl; [reflexivity|]. rewrite IH. reflexivity. Qed.

Theorem indent_then_dedent_lns d lns L :
  dedent_lns d lns (indent_lns d lns L) = L.
Proof.
  unfold dedent_lns, indent_lns. generalize 0 as i. induction L as [|l L IH]; intros i; [reflexivity|].
  simpl. rewrite IH. destruct (existsb (Nat.eqb i) lns); [rewrite dedent_indent_line|]; reflexivity.
Qed.
