(* C03: the markers render() places make Python read every parameter in the category it has in the list. *)
From Coq Require Import List Bool Arith Lia.
From PF Require Import models.ArgMarkers.
Import ListNotations.

Lemma ok_cons p e r : ok p (e :: r) = true -> p <= cnum (fst e) /\ (p = cnum (fst e) -> cnum (fst e) <> 2 /\ cnum (fst e) <> 4) /\ ok (cnum (fst e)) r = true.
Proof.
  cbn [ok]. intros H. apply andb_true_iff in H as [H H3]. apply andb_true_iff in H as [H1 H2]. apply Nat.leb_le in H1.
  split; [exact H1|split; [|exact H3]]. intros E. rewrite E in H2. split; intros c; rewrite c in H2; discriminate H2.
Qed.

Lemma ok_kw_last r : ok 4 r = true -> r = [].
Proof. destruct r as [|[[] n] r]; [reflexivity|discriminate..]. Qed.

(* behind the positional-only block: prev is 1 (ordinary / nothing), 2 (the vararg) or 3 (keyword-only) *)
Lemma tail_read_back : forall l p, 1 <= p <= 3 -> ok p l = true -> parse_tail (Nat.leb 2 p) (render p l) = Some l.
Proof.
  induction l as [|[c n] r IH]; intros p Hp Hok;
    assert (C : p = 1 \/ p = 2 \/ p = 3) by lia; destruct C as [->|[->| ->]]; try reflexivity.
  (* prev and the category of the head are one of fifteen pairs; those ok forbids are refuted by evaluation *)
  all: destruct c; try discriminate Hok; cbn in Hok.
  (* nothing follows **kwarg *)
  all: try (apply ok_kw_last in Hok as ->; reflexivity).
  (* in the other five the name is read back as it was written, behind the `*` render puts where keyword-only parameters start
     without a vararg, and the rest is read in the state the head leaves *)
  all: apply IH in Hok; [|lia]; cbn in Hok |- *; rewrite Hok; reflexivity.
Qed.

Lemma take_ids_block ns X : (match X with TId _ :: _ => False | _ => True end) ->
  take_ids (map TId ns ++ X) = (ns, X).
Proof.
  intros HX. induction ns as [|n ns IH]; cbn [map app take_ids].
  - destruct X as [|[]]; try reflexivity. destruct HX.
  - rewrite IH. reflexivity.
Qed.

(* in front of anything but a positional-only parameter a pending `/` is written first *)
Lemma render_after_pos rest : (match rest with (Pos, _) :: _ => False | _ => True end) -> render 0 rest = TSlash :: render 1 rest.
Proof.
  destruct rest as [|[c n] r]; intros H; [reflexivity|]. destruct c; [destruct H| | | |]; reflexivity.
Qed.

Lemma ok_after_pos l : (match l with (Pos, _) :: _ => False | _ => True end) -> ok 0 l = true -> ok 1 l = true.
Proof.
  destruct l as [|[c n] r]; intros Hh H; [reflexivity|]. cbn [ok fst] in *.
  destruct c; [destruct Hh| | | |]; cbn [cnum Nat.leb Nat.eqb andb orb negb] in *; exact H.
Qed.

(* the positional-only block in front: names already read, a `/` still pending *)
Lemma pos_block : forall l ids, ids <> [] -> ok 0 l = true ->
  parse (map TId ids ++ render 0 l) = Some (map (fun n => (Pos, n)) ids ++ l).
Proof.
  induction l as [|[c n] r IH]; intros ids Hi Hok; [|destruct c].
  2: { (* one more positional-only name: it joins the block *)
       destruct (ok_cons _ _ _ Hok) as (_ & _ & Hr).
       change (render 0 ((Pos, n) :: r)) with (map TId [n] ++ render 0 r).
       rewrite app_assoc, <- map_app, (IH (ids ++ [n])) by (assumption || now destruct ids).
       now rewrite map_app, <- app_assoc. }
  (* the end, or anything else: the `/` is written here, the rest is the tail *)
  all: rewrite render_after_pos by exact I.
  all: unfold parse; rewrite take_ids_block by exact I.
  all: rewrite (tail_read_back _ 1) by (try lia; now apply ok_after_pos).
  all: destruct ids; [contradiction|reflexivity].
Qed.

(* tokens Python reads without meeting a `/` are read the same by the full reader: were a `/` the first token that is
   not a name, the tail reader would have refused *)
Lemma parse_no_slash : forall ts l, parse_tail false ts = Some l -> parse ts = Some l.
Proof.
  intros ts l H. unfold parse. destruct (take_ids ts) as [ids rest] eqn:T.
  destruct rest as [|[] rest']; try exact H.
  exfalso. revert ids l H T.
  induction ts as [|[] ts IH]; intros ids l H T; cbn [take_ids parse_tail] in *; try discriminate.
  destruct (take_ids ts) as [a b] eqn:Ta. injection T as <- ->.
  destruct (parse_tail false ts) as [l'|] eqn:P; [|discriminate].
  exact (IH a l' eq_refl eq_refl).
Qed.

Theorem markers_read_back : forall l, ok 0 l = true -> parse (render 1 l) = Some l.
Proof.
  intros [|[c n] r] Hok; [reflexivity|]. destruct c.
  1: { destruct (ok_cons _ _ _ Hok) as (_ & _ & Hr). apply (pos_block r [n]); [discriminate|exact Hr]. }
  all: apply parse_no_slash, (tail_read_back _ 1); [lia|now apply ok_after_pos].
Qed.

Example markers_nonvacuous :
  (* a, /, b, *, c, **k  and  a, *v, c *)
  render 1 [(Pos, 1); (Arg, 2); (Kwo, 3); (Kw, 4)] = [TId 1; TSlash; TId 2; TStar; TId 3; TKw 4] /\
  render 1 [(Arg, 1); (Var, 5); (Kwo, 3)] = [TId 1; TVar 5; TId 3] /\
  ok 0 [(Pos, 1); (Arg, 2); (Kwo, 3); (Kw, 4)] = true /\ ok 0 [(Kwo, 3); (Arg, 2)] = false /\ ok 0 [(Var, 1); (Var, 2)] = false /\
  parse [TId 1; TStar] = None /\ parse [TSlash; TId 1] = None.
Proof. vm_compute. repeat split; reflexivity. Qed.
