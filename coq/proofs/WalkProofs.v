(* C14: the walk stack machines compute the structural traversal orders, for every tree and filter: on='enter' in either
   direction (walking backwards is walking the mirrored tree), on='leave' and on='both' forwards. *)
From Coq Require Import List Lia Permutation.
From PF Require Import models.Walk models.WalkShallowModes proofs.ListFacts.
Import ListNotations.

Definition opre (k : option rtree) : list nat := match k with Some k => pre k | None => [] end.

Lemma flat_map_map {A B C} (f : B -> list C) (g : A -> B) l : flat_map f (map g l) = flat_map (fun x => f (g x)) l.
Proof. now rewrite !flat_map_concat_map, map_map. Qed.

Lemma wsize_cons k s : wsize (k :: s) = osize k + wsize s.
Proof. reflexivity. Qed.

Lemma wsize_app a b : wsize (a ++ b) = wsize a + wsize b.
Proof. apply fold_sum_app. Qed.

Lemma wsize_ord back l : wsize (ord back l) = wsize l.
Proof.
  destruct back; [|reflexivity].
  induction l as [|x l IH]; [reflexivity|].
  cbn [ord rev] in *. rewrite wsize_app, !wsize_cons, IH. cbn [wsize fold_right]. lia.
Qed.

Lemma size_unfold i ok kids : size (RNode i ok kids) = S (wsize kids).
Proof. reflexivity. Qed.

Lemma osize_pos k : 1 <= osize k.
Proof. destruct k as [[i ok kids]|]; cbn; lia. Qed.

Lemma length_le_wsize l : length l <= wsize l.
Proof.
  induction l as [|x l IH]; [reflexivity|].
  rewrite wsize_cons. pose proof (osize_pos x). cbn [length]. lia.
Qed.

Definition turn (back : bool) (t : rtree) : rtree := if back then mirror t else t.
Definition oturn (back : bool) (k : option rtree) : option rtree := if back then omirror k else k.

Lemma pre_turn back i ok kids :
  pre (turn back (RNode i ok kids)) = (if ok then [i] else []) ++ flat_map (fun k => opre (oturn back k)) (ord back kids).
Proof.
  destruct back; cbn [turn mirror pre ord]; [|reflexivity].
  now rewrite <- map_rev, flat_map_map.
Qed.

Lemma run_enter_pre back fuel : forall stack, wsize stack <= fuel ->
  run_enter fuel back true stack = flat_map (fun k => opre (oturn back k)) stack.
Proof.
  induction fuel as [|f IH]; intros [|x s] H; try reflexivity; rewrite wsize_cons in H.
  - pose proof (osize_pos x). lia.
  - destruct x as [[i ok kids]|]; cbn [run_enter flat_map osize] in *.
    + rewrite size_unfold in H.
      rewrite IH by (rewrite wsize_app, wsize_ord; lia).
      rewrite flat_map_app.
      replace (opre (oturn back (Some (RNode i ok kids)))) with (pre (turn back (RNode i ok kids))) by now destruct back.
      rewrite pre_turn. destruct ok; cbn [app]; reflexivity.
    + rewrite IH by lia. now destruct back.
Qed.

Theorem walk_enter_pre back t : walk_enter back true t = pre (turn back t).
Proof.
  destruct t as [i ok kids]. unfold walk_enter.
  rewrite pre_turn, run_enter_pre; [reflexivity|].
  now rewrite wsize_ord.
Qed.

Theorem walk_enter_preorder t : walk_enter false true t = pre t.
Proof. exact (walk_enter_pre false t). Qed.

(* without recursion nothing is ever pushed: only the stacked nodes themselves are tested *)
Lemma run_enter_level : forall kids f back, length kids <= f -> run_enter f back false kids = level kids.
Proof.
  induction kids as [|k kids IH]; intros f back Hf; [destruct f; reflexivity|].
  cbn [length] in Hf. destruct f as [|f]; [lia|].
  cbn [run_enter level flat_map]. fold (level kids). rewrite <- (IH f back) by lia.
  destruct k as [[i [] ks]|]; reflexivity.
Qed.

Definition ipost (x : sitem) : list nat :=
  match x with SEnter (Some k) => post k | SEnter None => [] | SLeave (RNode i ok _) => if ok then [i] else [] end.
Definition iboth (x : sitem) : list (nat * bool) :=
  match x with SEnter (Some k) => both k | SEnter None => [] | SLeave (RNode i ok _) => if ok then [(i, true)] else [] end.

(* lsize, the fuel the leave and both walks need, counts an item still to be entered twice: every node is popped once to
   enter it and once to leave it *)
Lemma lsize_cons x s : lsize (x :: s) = isize x + lsize s.
Proof. reflexivity. Qed.

Lemma lsize_app a b : lsize (a ++ b) = lsize a + lsize b.
Proof. apply fold_sum_app. Qed.

Lemma lsize_enter kids : lsize (map SEnter kids) = 2 * wsize kids.
Proof.
  induction kids as [|k kids IH]; [reflexivity|].
  cbn [map]. rewrite lsize_cons, wsize_cons, IH. cbn [isize]. lia.
Qed.

Lemma isize_pos x : 1 <= isize x.
Proof. destruct x as [k|t]; cbn [isize]; [pose proof (osize_pos k)|]; lia. Qed.

Lemma run_leave_post fuel : forall stack, lsize stack <= fuel -> run_leave fuel false stack = flat_map ipost stack.
Proof.
  induction fuel as [|f IH]; intros [|x s] H; try reflexivity; rewrite lsize_cons in H.
  - pose proof (isize_pos x). lia.
  - destruct x as [[[i ok kids]|]|[i ok kids]]; cbn [run_leave ord flat_map ipost post isize osize] in *.
    + rewrite size_unfold in H. destruct ok; cbn [negb].
      * destruct kids as [|k0 kids'] eqn:Ek; [now rewrite IH by lia|]. rewrite <- Ek in *.
        rewrite IH by (rewrite lsize_app, lsize_enter, lsize_cons; cbn [isize]; lia).
        rewrite flat_map_app, flat_map_map. cbn [flat_map ipost]. now rewrite <- app_assoc.
      * rewrite IH by (rewrite lsize_app, lsize_enter; lia).
        rewrite flat_map_app, flat_map_map. now rewrite app_nil_r.
    + apply IH. lia.
    + destruct ok; cbn [app]; rewrite IH by lia; reflexivity.
Qed.

Theorem walk_leave_postorder t : walk_leave false t = post t.
Proof.
  destruct t as [i ok kids]. unfold walk_leave. cbn [ord post].
  now rewrite run_leave_post, flat_map_map by lia.
Qed.

Lemma run_both_both fuel : forall stack, lsize stack <= fuel -> run_both fuel false stack = flat_map iboth stack.
Proof.
  induction fuel as [|f IH]; intros [|x s] H; try reflexivity; rewrite lsize_cons in H.
  - pose proof (isize_pos x). lia.
  - destruct x as [[[i ok kids]|]|[i ok kids]]; cbn [run_both ord flat_map iboth both isize osize] in *.
    + rewrite size_unfold in H. destruct ok.
      * rewrite IH by (rewrite lsize_app, lsize_enter, lsize_cons; cbn [isize]; lia).
        rewrite flat_map_app, flat_map_map. cbn [flat_map iboth app]. now rewrite <- !app_assoc.
      * rewrite IH by (rewrite lsize_app, lsize_enter; lia).
        rewrite flat_map_app, flat_map_map. cbn [app]. now rewrite app_nil_r.
    + apply IH. lia.
    + destruct ok; cbn [app]; rewrite IH by lia; reflexivity.
Qed.

Theorem walk_both_brackets t : walk_both false t = both t.
Proof.
  destruct t as [i ok kids]. unfold walk_both. cbn [ord both].
  now rewrite run_both_both, flat_map_map by lia.
Qed.

Fixpoint ids (t : rtree) : list nat :=
  let 'RNode i _ kids := t in i :: flat_map (fun k => match k with Some k => ids k | None => [] end) kids.
Fixpoint all_ok (t : rtree) : bool :=
  let 'RNode _ ok kids := t in ok && forallb (fun k => match k with Some k => all_ok k | None => true end) kids.

(* with all=True the walk yields exactly the nodes of the tree (each once when ids are distinct), parent first *)
Theorem pre_all_is_ids t : all_ok t = true -> pre t = ids t.
Proof.
  revert t. fix IH 1. intros [i ok kids] H. cbn [all_ok] in H. apply andb_prop in H. destruct H as [-> Hk].
  cbn [pre ids app]. f_equal. induction kids as [|k kids IHk]; [reflexivity|].
  cbn [forallb] in Hk. apply andb_prop in Hk. destruct Hk as [H1 H2]. cbn [flat_map]. rewrite (IHk H2).
  destruct k as [k|]; [now rewrite (IH k H1)|reflexivity].
Qed.

(* on='leave' visits what on='enter' visits, each node as often *)
Theorem post_perm_pre : forall t, Permutation (post t) (pre t).
Proof.
  fix IH 1. intros [i ok kids]. cbn [post pre].
  apply (Permutation_trans (Permutation_app_comm _ _)), Permutation_app_head.
  induction kids as [|[k|] kids IHk]; cbn [flat_map]; [constructor| |exact IHk].
  exact (Permutation_app (IH k) IHk).
Qed.
