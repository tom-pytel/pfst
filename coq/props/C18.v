(* C18 - Substitution rewrites exactly the matched nodes with the filled-in template.

   FULL STATEMENT: sub(pattern, template) returns a tree satisfying C01 whose structure equals the result of replacing,
   in a pure AST, each matched node (outermost first, or all of them when nested) by the template with every tag slot
   filled by the captured node or slice; nodes that did not match are structurally unchanged and text outside substituted
   nodes is preserved as in C04. A template consisting only of the whole-match slot leaves the structure unchanged, and
   the reported counts equal the number of substitutions performed.

   PROVED HERE (models/Subst.v: any node predicate as the pattern, templates with whole-match and child-capture slots;
   tied to FST.subn by correspondence of results and counts):
   - the non-nested substitution meets the declarative specification "replace exactly the outermost matching nodes by
     the filled template, leave every non-matching node above them as it is", and that specification determines the
     result uniquely;
   - the whole-match template is the identity, nested or not;
   - the count is the number of outermost matches; a tree without matches is returned unchanged with count 0.
   - (models/SubLoop.v, the driver loop over the match locations with count / loop / callback, tied to the counts FST.subn
     reports by correspondence) the reported pair is (locations substituted, substitutions performed) for every setting;
     every location takes at most what it can match and at most the loop allowance, the same allowance at every
     location; a count limit is respected; locations <= substitutions.
   - (models/SlotEscape.v over the string alphabet and the literal scanners of models/StrRepr.v; tied to the text real
     sub() writes by correspondence) a capture written into a slot INSIDE a string constant of the template - quotes and
     backslashes escaped, non-printables as their unicode escapes - reads back as the capture's source, in single- and
     triple-quoted template strings of either quote kind, whatever stands in front of and behind the slot.
   NOT PROVED: the matcher (C17), slice and multi-node captures, the slot discovery per node type, text preservation.
   Decided by the pure-AST reference oracle of py/props/C18.py (partial). *)
From Coq Require Import List.
From PF Require Import models.Subst proofs.SubstProofs models.SubLoop proofs.SubLoopProofs models.StrRepr models.SlotEscape proofs.SlotEscapeProofs.
From Coq Require Import ZArith.
Import ListNotations.

Theorem C18_sub_replaces_exactly_the_outermost_matches : forall p tm t,
  replaced p tm t (sub p tm t) /\ (forall r, replaced p tm t r -> r = sub p tm t).
Proof. intros p tm t. split; [apply sub_meets_spec|apply spec_is_functional]. Qed.
Print Assumptions C18_sub_replaces_exactly_the_outermost_matches.

Theorem C18_whole_match_template_is_identity : forall p t, sub p TWhole t = t /\ subn p TWhole t = t.
Proof. intros p t. split; [apply sub_whole_is_identity|apply subn_whole_is_identity]. Qed.
Print Assumptions C18_whole_match_template_is_identity.

Theorem C18_count_is_number_of_outermost_matches : forall p t, cnt p t = length (outermost p t).
Proof. exact cnt_is_outermost. Qed.
Print Assumptions C18_count_is_number_of_outermost_matches.

Theorem C18_no_match_no_change : forall p tm t, nomatch p t = true -> sub p tm t = t /\ cnt p t = 0.
Proof. exact sub_nomatch_unchanged. Qed.
Print Assumptions C18_no_match_no_change.

(* count / loop / callback: the driver loop of subn() (models/SubLoop.v == the counts FST.subn reports, by correspondence) *)
Theorem C18_reported_counts_are_the_substitutions_performed : forall l0 count0, (0 <= count0)%Z -> forall locs cbs,
  let s := locs_run locs l0 (init count0 cbs) in
  subn_counts locs l0 count0 cbs = (Z.of_nat (nonzero (per_loc s)), sum (per_loc s)).
Proof. exact counts_are_substitutions. Qed.
Print Assumptions C18_reported_counts_are_the_substitutions_performed.

Theorem C18_every_location_within_its_matches_and_the_same_loop_allowance : forall locs l0 count0 cbs,
  let s := locs_run locs l0 (init count0 cbs) in
  length (per_loc s) <= length locs /\
  Forall2 (fun d avail => d <= avail /\ allowance l0 d) (per_loc s) (firstn (length (per_loc s)) locs).
Proof.
  intros locs l0 count0 cbs. cbn zeta.
  destruct (locs_run_spec l0 locs (init count0 cbs)) as (ds & E & _ & _ & _ & L & F).
  cbn [init per_loc app] in E. rewrite E. split; assumption.
Qed.
Print Assumptions C18_every_location_within_its_matches_and_the_same_loop_allowance.

Theorem C18_count_limit_respected : forall locs l0 count0 cbs, (0 < count0)%Z -> (fst (subn_counts locs l0 count0 cbs) <= count0)%Z.
Proof. exact count_limit_respected. Qed.
Print Assumptions C18_count_limit_respected.

Theorem C18_locations_le_substitutions : forall locs l0 count0 cbs, (0 <= count0)%Z ->
  (fst (subn_counts locs l0 count0 cbs) <= Z.of_nat (snd (subn_counts locs l0 count0 cbs)))%Z.
Proof. exact unique_le_total. Qed.
Print Assumptions C18_locations_le_substitutions.

Theorem C18_negative_count_is_no_limit_and_reports_the_substitutions_performed : forall locs l0 count cbs,
  ((count < 0)%Z -> subn_entry locs l0 count cbs = subn_entry locs l0 0%Z cbs) /\
  (let c0 := if (count <? 0)%Z then 0%Z else count in let s := locs_run locs l0 (init c0 cbs) in
   subn_entry locs l0 count cbs = (Z.of_nat (nonzero (per_loc s)), sum (per_loc s))) /\
  (fst (subn_entry locs l0 count cbs) <= Z.of_nat (snd (subn_entry locs l0 count cbs)))%Z.
Proof.
  intros locs l0 count cbs. unfold subn_entry. split; [intros H; now rewrite (proj2 (Z.ltb_lt count 0) H)|].
  split; [apply counts_are_substitutions|apply unique_le_total]; apply entry_count_nonneg.
Qed.
Print Assumptions C18_negative_count_is_no_limit_and_reports_the_substitutions_performed.

(* slots inside string constants of the template (models/SlotEscape.v) *)
Theorem C18_string_slot_reads_back_in_triple_quoted_template : forall q s T, is_quote q = true -> forallb plain s = true ->
  scan q (slot_escape s ++ T) = option_map (app s) (scan q T).
Proof. intros q s T Hq _. now apply slot_reads_back_in_triple_quoted. Qed.
Print Assumptions C18_string_slot_reads_back_in_triple_quoted_template.

Theorem C18_string_slot_reads_back_in_single_quoted_template : forall q s T, is_quote q = true -> forallb plain s = true ->
  scan1 q (slot_escape s ++ T) = option_map (app s) (scan1 q T).
Proof. intros q s T Hq _. now apply slot_reads_back_in_single_quoted. Qed.
Print Assumptions C18_string_slot_reads_back_in_single_quoted_template.

Theorem C18_string_slot_alone_is_the_capture_source : forall q s, is_quote q = true -> forallb plain s = true ->
  decode (triple q ++ slot_escape s ++ triple q) = Some s /\ decode1 (q :: slot_escape s ++ [q]) = Some s.
Proof. intros q s Hq _. now apply slot_alone_decodes. Qed.
Print Assumptions C18_string_slot_alone_is_the_capture_source.

(* non-vacuity: swap the operands of every outermost node labelled 1:  1(1(a,b), c) -> 1(c, 1(a,b)) non-nested,
   1(c, 1(b,a)) nested *)
Example C18_example :
  let t := Nd 1 [Nd 1 [Nd 7 []; Nd 8 []]; Nd 9 []] in
  let tm := TNode 1 [TKid 1; TKid 0] in
  sub (by_label [1]) tm t = Nd 1 [Nd 9 []; Nd 1 [Nd 7 []; Nd 8 []]] /\
  subn (by_label [1]) tm t = Nd 1 [Nd 9 []; Nd 1 [Nd 8 []; Nd 7 []]] /\ cnt (by_label [1]) t = 1 /\
  (* a capture that becomes the root of the replacement is not re-examined: 1(1(a,b),c) with template = first child *)
  subn (by_label [1]) (TKid 0) t = Nd 1 [Nd 7 []; Nd 8 []].
Proof. repeat split. Qed.
