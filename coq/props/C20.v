(* C20 - Options and edits are isolated per call, per block and per thread.

   FULL STATEMENT: an option passed to a call affects only that call; options set through options() are restored
   exactly on exit, also when the block raises; unknown options or invalid values are rejected before anything is
   changed; option defaults set in one thread are never visible in another; threads that edit different trees
   concurrently obtain exactly the results they would obtain running alone.

   PROVED HERE over models/Options.v / models/Registry.v (hand models of fst_options.py / _Modifying; option universe,
   defaults and effect order TRANSLATED into gen/OptionsTable.v), for all option names/values, nestings, exceptions
   and interleavings:
     reads are pure; invalid requests change nothing; a block restores exactly the names it sets and, when its body
     contains no bare set_options, the complete thread state; for every interleaving each thread ends where it would
     end alone; a fresh thread sees the table defaults; registry operations on different roots commute.
   NOT PROVED: atomicity of dict/threading.local operations under the interpreter lock and the behaviour of real
   edits under real preemption (runtime) - exercised by the concurrent cross-check in py/props/C20.py (partial). *)
From Coq Require Import List String Arith.
From PF Require Import gen.OptionsTable models.Options models.Registry proofs.OptionsProofs proofs.RegistryProofs.
Import ListNotations.

Theorem C20_call_option_is_pure : forall t n c, fst (step t (OGet n c)) = t.
Proof. reflexivity. Qed.
Print Assumptions C20_call_option_is_pure.

Theorem C20_call_option_wins : forall t n c v, assoc n c = Some v -> snd (step t (OGet n c)) = RVal (Some v).
Proof. intros t n c v H. cbn. now rewrite H. Qed.
Print Assumptions C20_call_option_wins.

Theorem C20_invalid_request_changes_nothing : forall t kvs, all_ok kvs = false ->
  step t (OSet kvs) = (t, RErr) /\ step t (OEnter kvs) = (t, RErr).
Proof. intros t kvs H. cbn. now rewrite H. Qed.
Print Assumptions C20_invalid_request_changes_nothing.

Theorem C20_block_restores_named_options : forall t kvs body,
  all_ok kvs = true -> wf_kvs kvs -> wf_store (st t) -> balanced body ->
  let t1 := fst (step t (OEnter kvs)) in
  let t2 := run t1 body in
  let t3 := fst (step t2 OExit) in
  stack t3 = stack t /\
  forall j d, nth j (st t3) d = if in_dec Nat.eq_dec j (map idx_or0 kvs) then nth j (st t) d else nth j (st t2) d.
Proof. intros t kvs body Hok _. now apply block_restore. Qed.
Print Assumptions C20_block_restores_named_options.

Theorem C20_nested_blocks_restore_everything : forall l, quiet l -> forall t, wf_store (st t) ->
  (forall kvs, In (OEnter kvs) l -> wf_kvs kvs) -> run t l = t.
Proof. intros l Hq t Hs _. now apply quiet_identity. Qed.
Print Assumptions C20_nested_blocks_restore_everything.

Theorem C20_thread_isolation : forall w tid o tid', tid <> tid' -> wget (wstep w (tid, o)) tid' = wget w tid'.
Proof. intros w tid o tid' H. unfold wstep. rewrite wget_wset. cbn [fst]. now apply Nat.eqb_neq in H as ->. Qed.
Print Assumptions C20_thread_isolation.

Theorem C20_every_interleaving_equals_running_alone : forall l w tid, wget (wrun w l) tid = run (wget w tid) (proj tid l).
Proof. exact interleaving_projection. Qed.
Print Assumptions C20_every_interleaving_equals_running_alone.

Theorem C20_fresh_thread_defaults : st (wget [] 0) = global_option_defaults /\ stack (wget [] 0) = [].
Proof. split; reflexivity. Qed.
Print Assumptions C20_fresh_thread_defaults.

Theorem C20_option_table_shape :
  List.length global_option_names = n_global /\ List.length global_option_defaults = n_global /\ NoDup global_option_names
  /\ (forall n, In n dyn_option_names -> index_of n global_option_names = None).
Proof.
  repeat split; [apply option_names_nodup|].
  intros n Hin. cbn in Hin. repeat destruct Hin as [<-|Hin]; try reflexivity; contradiction.
Qed.
Print Assumptions C20_option_table_shape.

Theorem C20_validate_before_update_restore_in_finally :
  pos_of "Validate" set_options_effects < pos_of "ReadOldOrRaise" set_options_effects /\
  pos_of "ReadOldOrRaise" set_options_effects < pos_of "Update" set_options_effects /\
  List.length (filter (String.eqb "Update") set_options_effects) = 1 /\
  options_cm_effects = ["SetOptions"; "Try["; "Yield"; "]Finally["; "Update"; "]"]%string.
Proof. vm_compute. repeat split; repeat constructor. Qed.
Print Assumptions C20_validate_before_update_restore_in_finally.

Theorem C20_edits_of_different_trees_commute : forall g o1 o2, rop_root o1 <> rop_root o2 ->
  req (fst (rstep (fst (rstep g o1)) o2)) (fst (rstep (fst (rstep g o2)) o1)) /\
  snd (rstep (fst (rstep g o1)) o2) = snd (rstep g o2) /\ snd (rstep (fst (rstep g o2)) o1) = snd (rstep g o1).
Proof. exact reg_disjoint_commute. Qed.
Print Assumptions C20_edits_of_different_trees_commute.

(* non-vacuity: a nested block with an inner invalid request, on the real defaults *)
Example C20_nonvacuous :
  let pars := {| k_name := "pars"; k_val := "False"; k_valid := true |} in
  let bad := {| k_name := "nope"; k_val := "1"; k_valid := true |} in
  let raw := {| k_name := "raw"; k_val := "True"; k_valid := true |} in
  let l := [OEnter [pars]; OGet "pars" []; OEnter [raw]; OSet [bad]; OExit; OExit] in
  quiet l /\ run fresh l = fresh /\
  snd (step (run fresh [OEnter [pars]]) (OGet "pars" [])) = RVal (Some "False"%string) /\
  snd (step fresh (OGet "pars" [])) = RVal (Some "'auto'"%string).
Proof.
  cbv zeta. split; [|split; [|split]]; try reflexivity.
  apply (q_block _ [OGet "pars" []; OEnter _; OSet _; OExit] []); [reflexivity| |constructor].
  constructor. apply (q_block _ [OSet _] []); [reflexivity| |constructor].
  apply q_set; [reflexivity|constructor].
Qed.
