(* C15 - Walking stays sound while the tree is being modified.

   FULL STATEMENT: while iterating walk() (or search/sub built on it), replacing or removing the node just yielded, any of
   its ancestors, or siblings before or after it never makes the iteration raise, loop forever, yield a node that is no
   longer part of the tree, or yield the same node twice on entry. After replacing the current node its new children are
   walked next, after removing it the walk continues with what follows, send(False)/send(True) are honoured, and the
   final tree satisfies C01.

   PROVED HERE (models/WalkMut.v: the on='enter' loop over a heap of AST objects with their FST handles; the caller is an
   adversary supplying ANY well-formed heap after each yield subject only to `legal`: existing objects keep their
   creation-time parent and their handle, new objects get fresh ids - which is what replace/remove of any nodes whatsoever
   do - together with the send decision; tied to fst_traverse.walk by correspondence on observed heaps, on which the
   hypotheses WF / legal are evaluated as well):
   - for every number of steps and every such adversary, no FST handle is yielded twice;
   - a handle is yielded only for an AST object that is attached (ast.f is not None) at that moment; a detached object
     is dropped without a yield and without consulting the caller; an attached object that fails the `all` filter is not
     yielded either but its children are still scheduled;
   - after the yield exactly the children of the handle's THEN-current AST are scheduled, in front of what was already
     scheduled: the replacement's children after a replace, nothing after a remove or send(False).
   - (models/WalkLeave.v: the on='leave' and on='both' loops on a tree that is NOT modified, with the caller's send()
     decisions; tied to the real generator by correspondence) on='leave' yields the bottom-up order and on='both' brackets
     every node; send(True) when a node is left walks its children again, then the node, then what was queued behind it;
     send(False) on entry skips the children but not the leave.
   - (models/WalkShallow.v, recurse=False with on='both') send(True) at the entry yield of a child makes its events exactly
     its bracket - entered once, the whole sub-tree, left once - and the walk goes on behind it; without a send() every child is
     entered and left and nothing below it is walked; items that stem from full walks run as the full walk of WalkLeave.v does.
   NOT PROVED: termination (holds for finitely many mutations; the oracle bounds the steps), the on='leave'/'both'
   variants UNDER MUTATION (oracle only), scope walks, search/sub consumers, that replace/remove produce legal well-formed heaps (evaluated on every
   observed heap instead), C01 of the final tree. Decided by py/props/C15.py (partial). *)
From Coq Require Import List Bool.
From PF Require Import models.WalkMut proofs.WalkMutProofs models.WalkLeave proofs.WalkLeaveProofs models.WalkShallow proofs.WalkShallowProofs.
Import ListNotations.

Theorem C15_no_node_yielded_twice : forall fuel h root advs,
  WF h -> root < next h -> parent h root = None -> legal_chain h advs ->
  NoDup (out (snd (run fuel h advs (start h root)))).
Proof.
  intros fuel h root advs Hwf Hr Hp Hch.
  exact (proj1 (i_out _ _ (run_inv fuel h advs _ Hwf (start_inv h root Hwf Hr Hp) Hch))).
Qed.
Print Assumptions C15_no_node_yielded_twice.

Theorem C15_yield_only_attached_then_current_children : forall h h' d s a st,
  stack s = a :: st ->
  let '(h2, s2, used) := iter h (h', d) s in
  (used = true -> alive h a = true /\ okf h a = true /\ out s2 = handle h a :: out s /\
                  stack s2 = (match (if d then cur h' (handle h a) else None) with Some c => kids h' c | None => [] end) ++ st) /\
  (used = false -> out s2 = out s /\ h2 = h /\
                   ((alive h a = false /\ stack s2 = st) \/ (alive h a = true /\ okf h a = false /\ stack s2 = kids h a ++ st))).
Proof. exact iter_yield_spec. Qed.
Print Assumptions C15_yield_only_attached_then_current_children.

Theorem C15_invariant_preserved_by_any_legal_mutation : forall h h' d s,
  WF h -> Inv h s -> WF h' -> legal h h' ->
  let '(h2, s2, _) := iter h (h', d) s in Inv h2 s2 /\ WF h2 /\ legal h h2.
Proof.
  intros h h' d s Hwf Hinv Hwf' Hleg. pose proof (iter_step h h' d s Hwf Hinv Hwf' Hleg) as H.
  destruct (iter h (h', d) s) as [[h2 s2] used]. destruct H as [H ->]. split; [exact H|].
  destruct used; [exact (conj Hwf' Hleg)|exact (conj Hwf (legal_refl h))].
Qed.
Print Assumptions C15_invariant_preserved_by_any_legal_mutation.

(* on='leave' / on='both' and send() on an unmodified tree (models/WalkLeave.v) *)
Theorem C15_leave_is_bottom_up : forall t ds f, quiet (size t) ds ->
  lrun (lsteps t + f) [E t] ds [] = Some (post t, skipn (size t) ds).
Proof. intros t ds f Hq. etransitivity; [exact (leave_all t [] ds [] f Hq)|]. destruct f; reflexivity. Qed.
Print Assumptions C15_leave_is_bottom_up.

Theorem C15_leave_send_true_walks_children_again_then_node : forall t st ds out f, quiet (size t) ds ->
  lrun (S (lstepss (children t) + S f)) (L t :: st) (Some true :: ds) out =
  lrun f st (skipn (size t) ds) (out ++ [label t] ++ post t).
Proof. exact leave_resend. Qed.
Print Assumptions C15_leave_send_true_walks_children_again_then_node.

Theorem C15_both_brackets : forall t ds f, silent (2 * size t) ds ->
  brun (bsteps t + f) [E t] ds [] = Some (bracket t, skipn (2 * size t) ds).
Proof. intros t ds f Hq. etransitivity; [exact (both_all t [] ds [] f Hq)|]. destruct f; reflexivity. Qed.
Print Assumptions C15_both_brackets.

Theorem C15_both_send_false_skips_children_not_the_leave : forall t st ds out f,
  brun (S (S f)) (E t :: st) (Some false :: None :: ds) out = brun f st ds (out ++ [(label t, false); (label t, true)]).
Proof. intros. cbn [brun bstep next_dec is_false is_true app]. now rewrite <- app_assoc. Qed.
Print Assumptions C15_both_send_false_skips_children_not_the_leave.

Theorem C15_both_send_true_on_leaving_enters_again : forall t st ds out f, silent (2 * size t) ds ->
  brun (S (bsteps t + f)) (L t :: st) (Some true :: ds) out = brun f st (skipn (2 * size t) ds) (out ++ (label t, true) :: bracket t).
Proof. intros t st ds out f Hq. cbn [brun bstep next_dec is_true app]. rewrite (both_all t st ds _ f Hq). now rewrite <- app_assoc. Qed.
Print Assumptions C15_both_send_true_on_leaving_enters_again.

Theorem C15_shallow_both_send_true_at_entry_gives_the_bracket_of_the_node : forall t st ds out f, silent (2 * sizes (children t) + 1) ds ->
  srun (S (bstepss (children t) + S f)) (SN t :: map SI st) (Some true :: ds) out =
  srun f (map SI st) (skipn (2 * sizes (children t) + 1) ds) (out ++ bracket t).
Proof. exact shallow_entry_send. Qed.
Print Assumptions C15_shallow_both_send_true_at_entry_gives_the_bracket_of_the_node.

Theorem C15_shallow_both_without_send_enters_and_leaves_each_child : forall cs st ds out f, silent (2 * length cs) ds ->
  srun (2 * length cs + f) (map SN cs ++ map SI st) ds out =
  srun f (map SI st) (skipn (2 * length cs) ds) (out ++ flat_map (fun c => [(label c, false); (label c, true)]) cs).
Proof. intros cs st. exact (shallow_quiet cs (map SI st)). Qed.
Print Assumptions C15_shallow_both_without_send_enters_and_leaves_each_child.

Theorem C15_shallow_items_of_full_walks_run_as_the_full_walk : forall f stk ds out, srun f (map SI stk) ds out = brun f stk ds out.
Proof. exact srun_full. Qed.
Print Assumptions C15_shallow_items_of_full_walks_run_as_the_full_walk.

(* non-vacuity: root 0 with children 1, 2; while 1 is yielded the caller replaces 2 by a new object 3 (same handle) and
   1 by 4 with a new child 5: 2 is skipped, 5 is walked next, nothing is yielded twice *)
Example C15_example :
  let h0 := mkheap 3 [(0, [1; 2])] [(1, Some 0); (2, Some 0)] [(0, 0); (1, 1); (2, 2)] [0; 1; 2] [(0, Some 0); (1, Some 1); (2, Some 2)] [] in
  let h1 := mkheap 6 [(0, [4; 3]); (4, [5])] [(1, Some 0); (2, Some 0); (3, Some 0); (4, Some 0); (5, Some 4)]
                   [(0, 0); (1, 1); (2, 2); (3, 2); (4, 1); (5, 5)] [0; 3; 4; 5] [(0, Some 0); (1, Some 4); (2, Some 3); (5, Some 5)] [] in
  wf_check h0 && chain_check h0 [(h1, true)] = true /\
  rev (out (snd (run 10 h0 [(h1, true)] (start h0 0)))) = [1; 5].
Proof. split; reflexivity. Qed.
