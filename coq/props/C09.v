(* C09 - Replacing an operand never changes how the surrounding expression groups.

   FULL STATEMENT: for every expression or pattern position and every kind of replacement expression, in one-line or
   multi-line layout, the edited source parses to the parent with exactly that replacement in that position;
   parentheses are added whenever precedence, associativity or line structure requires them, and needed existing
   parentheses are never removed.

   PROVED HERE: C09_table_adequate - over the COMPLETE finite domain (every child kind x every slot x all 16 flag
   settings; 3489 triples) the decision function TRANSLATED from astutil.precedence_require_parens_by_type together
   with the TRANSLATED tables answers "parentheses required" whenever the hand-written grammar requirement
   (models/PyGrammar.v: levels of the Python 3.12 expression/pattern grammar) says an unparenthesised child would not
   parse back into that slot. Re-checked on the regenerated tables on every run.
   NOT PROVED (partial): that the hand grammar levels are CPython's (no Gallina parser / round-trip proof was built):
   instead `grammar_needs = false -> the bare child parses back into the slot` is validated on every run by exhaustive
   enumeration of the finite (slot x child kind x example) domain against ast.parse (OH2), and the full chain is
   cross-checked through real puts. Line structure (the _is_enclosed functions) and atom analysis are covered by the oracle only. *)
From Coq Require Import List String Bool.
From PF Require Import kernel.PrecBase gen.PrecTables models.PyGrammar.
Import ListNotations.
Local Open Scope string_scope.

Definition checked_at (t : string * string * string) (fl : flags) : bool :=
  let '(c, p, f) := t in
  match require_parens c p f fl with Some b => implb (grammar_needs c p f fl) b | None => false end.

(* Both functions read the flags only under a Dict / Attribute / Starred parent or for a MatchAs child (the one
   kind whose table value, cp, is True), so everywhere else one flag setting stands for all sixteen. *)
Definition reads_flags (cp : pv) (c p : string) : bool :=
  existsb (String.eqb p) ["Dict"; "Attribute"; "Starred"] || String.eqb c "MatchAs" || pv_is_true cp.

Lemma flags_unread c p f fl :
  reads_flags (lookup_node c) c p = false -> checked_at (c, p, f) fl = checked_at (c, p, f) no_flags.
Proof.
  unfold reads_flags. cbn [existsb]. rewrite !orb_false_iff. intros [[(Hd & Ha & Hs & _) Hm] Ht].
  unfold checked_at, require_parens, grammar_needs. rewrite Hd, Ha, Hs, Hm, Ht. reflexivity.
Qed.

(* Nearly all the cost of evaluating checked_at is its five association-list lookups on strings, and the domain is a
   product of children and slots: checked_on is checked_at with the looked-up values as arguments (its body is read off
   checked_at, not copied), so that the sweep looks up once per child and once per slot. *)
Definition checked_on (cp pp : pv) (cl clm : nat) (s : slot) (c p f : string) (fl : flags) : bool :=
  ltac:(let b := eval cbv beta iota delta [checked_at require_parens grammar_needs] in (checked_at (c, p, f) fl) in
        let b := eval pattern (lookup_node c), (lookup_field p f), (child_level c), (child_level "MatchAs_pat"), (slot_of p f) in b in
        lazymatch b with ?B _ _ _ _ _ => let r := eval cbv beta in (B cp pp cl clm s) in exact r end).

Lemma checked_on_eq c p f fl :
  checked_at (c, p, f) fl = checked_on (lookup_node c) (lookup_field p f) (child_level c) (child_level "MatchAs_pat") (slot_of p f) c p f fl.
Proof. reflexivity. Qed.

Definition sweep (cs : list string) (ss : list (string * string)) : bool :=
  let clm := child_level "MatchAs_pat" in
  let rows := map (fun c => (c, lookup_node c, child_level c)) cs in
  forallb (fun '(p, f) => let pp := lookup_field p f in let s := slot_of p f in
    forallb (fun '(c, cp, cl) =>
      forallb (checked_on cp pp cl clm s c p f) (if reads_flags cp c p then all_flags else [no_flags])) rows) ss.

Lemma sweep_sound cs ss : sweep cs ss = true ->
  forall c p f fl, In c cs -> In (p, f) ss -> In fl all_flags -> checked_at (c, p, f) fl = true.
Proof.
  unfold sweep. cbv zeta. rewrite forallb_forall. intros H c p f fl Hc Hs Hf.
  specialize (H _ Hs). cbv beta iota in H. rewrite forallb_forall in H.
  specialize (H _ (in_map _ _ _ Hc)). cbv beta iota in H. rewrite forallb_forall in H.
  destruct (reads_flags (lookup_node c) c p) eqn:E; [|rewrite (flags_unread c p f fl E)]; rewrite checked_on_eq; apply H; [exact Hf|now left].
Qed.

Lemma sweep_exprs : sweep expr_children expr_slots = true.
Proof. vm_compute. reflexivity. Qed.

Lemma sweep_pats : sweep pat_children pat_slots = true.
Proof. vm_compute. reflexivity. Qed.

Lemma table_checked t fl : In t all_triples -> In fl all_flags -> checked_at t fl = true.
Proof.
  unfold all_triples. rewrite in_app_iff, !in_flat_map.
  intros [([p f] & Hs & Ht)|([p f] & Hs & Ht)] Hf; apply in_map_iff in Ht as (c & <- & Hc); cbn [fst snd].
  - exact (sweep_sound _ _ sweep_exprs c p f fl Hc Hs Hf).
  - exact (sweep_sound _ _ sweep_pats c p f fl Hc Hs Hf).
Qed.

Theorem C09_table_adequate : forall c p f fl, In (c, p, f) all_triples -> In fl all_flags ->
  grammar_needs c p f fl = true -> require_parens c p f fl = Some true.
Proof.
  intros c p f fl Ht Hf Hn. pose proof (table_checked _ fl Ht Hf) as H. unfold checked_at in H. rewrite Hn in H.
  now destruct (require_parens c p f fl) as [[|]|].
Qed.
Print Assumptions C09_table_adequate.

(* every flag record is in the enumerated domain: the statement above really is for ALL flag settings *)
Theorem C09_flags_complete : forall fl, In fl all_flags.
Proof. intros [[|] [|] [|] [|]]; vm_compute; tauto. Qed.
Print Assumptions C09_flags_complete.

(* the decision function is total on the domain (never the assert / ValueError path) *)
Theorem C09_decision_total : forallb (fun t => let '(c, p, f) := t in forallb (fun fl => match require_parens c p f fl with Some _ => true | None => false end) all_flags) all_triples = true.
Proof.
  apply forallb_forall. intros [[c p] f] Ht. apply forallb_forall. intros fl Hf.
  pose proof (table_checked _ fl Ht Hf) as H. unfold checked_at in H. now destruct (require_parens c p f fl).
Qed.
Print Assumptions C09_decision_total.

(* associativity: the operand opposite to the operator's associativity is one level stricter *)
Theorem C09_associativity : 
  forallb (fun op => match require_parens op op "right" no_flags, require_parens op op "left" no_flags with
                     | Some r, Some l => if String.eqb op "Pow" then l && negb r else r && negb l | _, _ => false end)
          ["Add"; "Sub"; "Mult"; "MatMult"; "Div"; "Mod"; "FloorDiv"; "LShift"; "RShift"; "BitOr"; "BitXor"; "BitAnd"; "Pow"] = true.
Proof. vm_compute. reflexivity. Qed.
Print Assumptions C09_associativity.

Example C09_nonvacuous :
  existsb (fun t => let '(c, p, f) := t in String.eqb c "IfExp" && String.eqb p "comprehension" && String.eqb f "iter") all_triples = true /\
  grammar_needs "IfExp" "comprehension" "iter" no_flags = true /\
  require_parens "IfExp" "comprehension" "iter" no_flags = Some true /\
  require_parens "Mult" "Add" "left" no_flags = Some false /\ require_parens "Add" "Mult" "left" no_flags = Some true.
Proof. vm_compute. repeat split; reflexivity. Qed.
