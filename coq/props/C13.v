(* C13 - reconcile() returns a valid tree that equals the externally edited AST.

   FULL STATEMENT: after mark(), any changes made directly to the AST objects (replacing, inserting, deleting, reordering,
   duplicating nodes, mixing in nodes from other trees or brand-new nodes, changing primitive values) followed by
   reconcile() give a tree that satisfies C01 and is structurally equal to the edited AST. With no changes the returned
   source is identical to the marked source, and statements whose AST nodes were not touched keep their original text,
   comments included.

   PROVED HERE (models/Reconcile.v: the recursion of Reconcile.recurse_node / recurse_children over trees whose nodes
   carry "is object k of the marked tree" or "pure AST"; tied to reconcile.py by correspondence of the number of puts):
   - for EVERY marked tree and EVERY edited tree (any mixture of in-place, moved, duplicated, foreign/new nodes, changed
     labels, changed child counts) the returned tree is structurally equal to the edited tree;
   - with no changes nothing is put at all and the marked tree is returned with every formatting identity intact;
   - a child sub-tree that is untouched and still in place under an in-tree parent is returned intact (all identities,
     hence all original text) whatever was done to its siblings.
   - (models/SliceReplay.v: the loop of Reconcile.recurse_slice over an edited list - maximal runs of elements that are
     consecutive in their source list go in by ONE slice operation, elements already in place and pure nodes are handled
     alone, the tail is deleted; tied to reconcile.py by correspondence of the put_slice calls it makes) whatever the
     output list held and wherever the edited elements come from the loop leaves exactly the edited list; an unchanged
     list is only recursed into - no slice operation touches it.
   NOT PROVED: the put operations themselves (C01/C03/C09 - the model assumes a put makes the position equal to what was
   put), recurse_slice_dict and elements from other trees in recurse_slice (verified first, with fall back), comments.
   Decided on the implementation by py/props/C13.py (partial). *)
From Coq Require Import List Arith.
From PF Require Import models.Reconcile proofs.ReconcileProofs models.SliceReplay proofs.SliceReplayProofs.
Import ListNotations.

Theorem C13_reconciled_equals_edited : forall M w, shape (fst (reconcile M w)) = shape w.
Proof. intros M w. unfold reconcile. apply rec_shape. discriminate. Qed.
Print Assumptions C13_reconciled_equals_edited.

Theorem C13_no_change_no_put : forall M, all_marked M = true -> reconcile M M = (M, 0).
Proof. intros M. apply rec_unchanged. Qed.
Print Assumptions C13_no_change_no_put.

Theorem C13_untouched_child_kept : forall M ws os i t,
  nth_error ws i = Some t -> nth_error os i = Some t -> all_marked t = true ->
  nth_error (fst (go_rec M true ws os)) i = Some t.
Proof. exact untouched_child_kept. Qed.
Print Assumptions C13_untouched_child_kept.

Theorem C13_slice_replay_rebuilds_the_edited_list : forall body out, fst (recurse_slice body out) = map eid body.
Proof.
  intros body out. unfold recurse_slice.
  apply (replay_spec (S (length body)) body 0 out); [apply Nat.lt_succ_diag_r | apply Nat.le_0_l].
Qed.
Print Assumptions C13_slice_replay_rebuilds_the_edited_list.

Theorem C13_unchanged_list_is_only_recursed_into : forall body,
  (forall i x, nth_error body i = Some x -> own x = true /\ exists p, src x = Some (p, i)) ->
  recurse_slice body (map eid body) = (map eid body, map Recurse (seq 0 (length body))).
Proof.
  intros body H. unfold recurse_slice. apply replay_unchanged; [apply Nat.lt_succ_diag_r|reflexivity|exact H].
Qed.
Print Assumptions C13_unchanged_list_is_only_recursed_into.

(* non-vacuity: mark  f(a, b) ; edit: replace b by a new node, rename f's label: 2 puts, a kept with its identity *)
Example C13_example :
  let M := RT (Some 0) 10 [RT (Some 1) 11 []; RT (Some 2) 12 []; RT (Some 3) 13 []] in
  let w := RT (Some 0) 10 [RT (Some 1) 99 []; RT (Some 2) 12 []; RT None 50 []] in
  reconcile M w = (RT (Some 0) 10 [RT (Some 1) 99 []; RT (Some 2) 12 []; RT None 50 []], 2).
Proof. reflexivity. Qed.
