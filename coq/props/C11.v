(* C11 - Whitespace-only source edits in offset mode keep every node on its text.

   FULL STATEMENT: put_src(action='offset') of pure trivia on the innermost node strictly containing the spot leaves
   the tree equal, in structure and positions, to a from-scratch parse of the new source; nodes before the spot do not
   move, nodes after it move by exactly the size of the change, containing nodes grow or shrink by it.

   PROVED HERE, for every text, region, replacement, tree, tail/head setting:
     K1  every branch of _put_src (hand model kernel/Text.v) is the one algebraic splice; lines above/below are kept,
         the start line keeps its prefix, the new end line is NEWPREFIX ++ old suffix;
     T1  the TRANSLATED _params_offset returns exactly (old end line, -bytes before the old end column, line delta,
         byte delta of that prefix), hence text after the region sits at byte column b + dcol (end_line_suffix_bytes);
     T2  the TRANSLATED per-node rule of _offset equals the intended position map (docstring table) on every
         well-formed span;
     K2  under the syntax-order assumption stated in the code's WARNING (`Ordered`), the walk with its two `break`s and
         its `continue` changes exactly the nodes the rule changes (walk = map), with `exclude`/`offset_excluded`;
     M   the two-phase offset of offset mode is `mode_map`: containers (self, ancestors, all nodes not below self)
         keep a start at the spot and extend an end at the spot; nodes below self do the opposite; positions strictly
         before never move; positions strictly after move rigidly by (dln, dcol on the spot's line).
   NOT PROVED: that CPython assigns positions by token extents (OH1) - "equal to a from-scratch parse" is decided by
   the oracle cross-check in py/props/C11.py; `Ordered` is a hypothesis checked on every tree the harness builds. *)
From Coq Require Import ZArith List Lia.
From PF Require Import kernel.PyBase kernel.Text kernel.OffsetBase gen.ParamsOffset gen.OffsetNode models.Offset
  proofs.TextProofs proofs.ParamsOffsetProofs proofs.OffsetProofs.
Import ListNotations.

Theorem C11_put_src_is_splice : forall L P ln col eln ecol,
  valid_loc L ln col eln ecol -> put_lines_of P <> [] ->
  put_src L P ln col eln ecol = put_spec L (put_lines_of P) ln col eln ecol.
Proof. exact put_src_is_spec. Qed.
Print Assumptions C11_put_src_is_splice.

Theorem C11_lines_before_kept : forall L put ln col eln ecol i d, ln <= length L -> i < ln ->
  nth i (put_spec L put ln col eln ecol) d = nth i L d.
Proof. exact put_spec_before. Qed.
Print Assumptions C11_lines_before_kept.

Theorem C11_lines_after_kept : forall L put ln col eln ecol k d, ln <= eln < length L -> eln < k -> put <> [] ->
  nth (k - (eln - ln) + (length put - 1)) (put_spec L put ln col eln ecol) d = nth k L d.
Proof. exact put_spec_after. Qed.
Print Assumptions C11_lines_after_kept.

Theorem C11_start_line_prefix_kept : forall L put ln col eln ecol, ln <= length L -> col <= length (lineAt L ln) ->
  firstn col (nth ln (put_spec L put ln col eln ecol) []) = firstn col (lineAt L ln).
Proof. exact put_spec_start_prefix. Qed.
Print Assumptions C11_start_line_prefix_kept.

Theorem C11_params_offset_correct : forall (L put : pytext) (ln col eln ecol : nat),
  valid_loc L ln col eln ecol -> put <> [] ->
  params_offset L put (Z.of_nat ln) (Z.of_nat col) (Z.of_nat eln) (Z.of_nat ecol)
  = Some (Z.of_nat eln,
          (- Z.of_nat (c2b (lineAt L eln) ecol))%Z,
          (Z.of_nat (length put - 1) - Z.of_nat (eln - ln))%Z,
          (Z.of_nat (blen_nat (new_prefix L put ln col)) - Z.of_nat (c2b (lineAt L eln) ecol))%Z).
Proof. exact params_offset_correct. Qed.
Print Assumptions C11_params_offset_correct.

Theorem C11_text_after_region_at_predicted_byte_column : forall L put ln col eln ecol k,
  ln <= length L -> ecol <= length (lineAt L eln) ->
  bskip (blen_nat (new_prefix L put ln col) + k) (nth (ln + (length put - 1)) (put_spec L put ln col eln ecol) [])
  = bskip (c2b (lineAt L eln) ecol + k) (lineAt L eln).
Proof. exact end_line_suffix_bytes. Qed.
Print Assumptions C11_text_after_region_at_predicted_byte_column.

Theorem C11_node_rule_is_position_map : forall lno colo dln dcol tail head l c el ec deco,
  pos_le l c el ec = true ->
  fst (offset_node lno colo dln dcol tail head (l, c, el, ec) deco) = offset_spec lno colo dln dcol tail head (l, c, el, ec).
Proof. exact offset_node_spec. Qed.
Print Assumptions C11_node_rule_is_position_map.

Theorem C11_walk_changes_every_node_the_rule_changes : forall lno colo dln dcol tail head excl oe t, Ordered t ->
  fst (walk_tree lno colo dln dcol tail head excl oe t) = map_tree lno colo dln dcol tail head excl oe t.
Proof. exact walk_map. Qed.
Print Assumptions C11_walk_changes_every_node_the_rule_changes.

Theorem C11_offset_mode : forall lno colo dln dcol self t, Ordered t ->
  offset_mode lno colo dln dcol self t = mode_map lno colo dln dcol self false t.
Proof. exact offset_mode_is_mode_map. Qed.
Print Assumptions C11_offset_mode.

Theorem C11_before_spot_fixed : forall lno colo dln dcol tail head q,
  wf_pos q -> before lno colo q -> offset_spec lno colo dln dcol tail head q = q.
Proof. exact spec_id_before. Qed.
Print Assumptions C11_before_spot_fixed.

Theorem C11_after_spot_moves_rigidly : forall lno colo dln dcol tail head l c el ec,
  pos_le l c el ec = true -> pos_lt lno colo l c = true ->
  offset_spec lno colo dln dcol tail head (l, c, el, ec)
  = ((l + dln)%Z, (if (l =? lno)%Z then (c + dcol)%Z else c), (el + dln)%Z, (if (el =? lno)%Z then (ec + dcol)%Z else ec)).
Proof. exact spec_after. Qed.
Print Assumptions C11_after_spot_moves_rigidly.

Theorem C11_container_grows : forall lno colo dln dcol l c el ec,
  pos_le l c lno colo = true -> pos_le lno colo el ec = true -> pos_lt l c el ec = true ->
  offset_spec lno colo dln dcol TTrue TFalse (l, c, el, ec)
  = (l, c, (el + dln)%Z, (if (el =? lno)%Z then (ec + dcol)%Z else ec)).
Proof. exact spec_container. Qed.
Print Assumptions C11_container_grows.

Theorem C11_child_ending_at_spot_fixed : forall lno colo dln dcol l c el ec,
  pos_lt l c el ec = true -> pos_le el ec lno colo = true ->
  offset_spec lno colo dln dcol TFalse TTrue (l, c, el, ec) = (l, c, el, ec).
Proof. exact spec_child_before. Qed.
Print Assumptions C11_child_ending_at_spot_fixed.

Theorem C11_child_starting_at_spot_moves : forall lno colo dln dcol l c el ec,
  pos_lt l c el ec = true -> pos_le lno colo l c = true ->
  offset_spec lno colo dln dcol TFalse TTrue (l, c, el, ec)
  = ((l + dln)%Z, (if (l =? lno)%Z then (c + dcol)%Z else c), (el + dln)%Z, (if (el =? lno)%Z then (ec + dcol)%Z else ec)).
Proof. exact spec_child_after. Qed.
Print Assumptions C11_child_starting_at_spot_moves.

(* non-vacuity: `a, b` with one space inserted after the comma (the docstring example of put_src puts it at the end) *)
Example C11_nonvacuous :
  let t := SNode 0 (Some (1, 0, 1, 4)%Z) None
             [Some (SNode 1 (Some (1, 0, 1, 1)%Z) None []); Some (SNode 2 (Some (1, 3, 1, 4)%Z) None [])] in
  Ordered t /\
  flat_pos (offset_mode 1 2 0 1 0 t) = [Some (1, 0, 1, 5)%Z; Some (1, 0, 1, 1)%Z; Some (1, 4, 1, 5)%Z] /\
  put_src [[97; 44; 32; 98]%N] (Some [[32]%N]) 0 2 0 2 = [[97; 44; 32; 32; 98]%N].
Proof.
  split; [|split; reflexivity].
  constructor.
  - intros l c el ec E. injection E as <- <- <- <-. split; [reflexivity|].
    cbn. intros q [<-|[<-|[]]]; split; cbn; try reflexivity; lia.
  - (* SibOrd: the only sibling with an earlier one is the second child *)
    intros A k B pk E Epk q Hq.
    destruct A as [|a [|a2 A]]; cbn in E.
    + contradiction.
    + injection E as <- <- <-. cbn in Epk. injection Epk as <-. cbn in Hq. destruct Hq as [<-|[]]. reflexivity.
    + destruct A; discriminate E.
  - intros k [E|[E|[]]]; injection E as <-; now apply Ordered_leaf.
Qed.
