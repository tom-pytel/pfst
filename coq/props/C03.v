(* C03 - Edits follow Python container semantics and change nothing else in the tree.

   FULL STATEMENT (properties.jsonl): putting a slice into a list-like field leaves that field equal to
   old[:start] + new + old[stop:]; putting or deleting one element changes exactly that position; indices, negative
   indices, 'end' and slice bounds behave like a Python list (virtual fields included); every other node is unchanged
   and keeps its relative order; the result depends only on structure, not on layout or entry point; a request whose
   result is valid Python is carried out.

   PROVED HERE (for all lengths, indices, element lists, view histories):
     - the TRANSLATED index normalisation (gen/Fixups.v, regenerated from fst_misc.py on every run) is Python's
       list index / slice-bound rule;
     - the abstract slice put is old[:s] + new + old[e:], touches nothing outside [s,e) and keeps relative order;
     - every FSTView operation (hand model models/View.v of view.py over the translated fixups) is the corresponding
       Python list operation on the window and leaves the field outside the window untouched, for any healing history.
     - (models/Arglikes.v) Call.args / Call.keywords are two AST lists interleaved in the source; `keywords` slices are
       edited through the merged list at index i + len(args): that index is the keyword's position exactly when no
       positional argument stands behind it, the guard of the keywords edit refuses exactly the other cases, and the
       guard of args / bases edits passes exactly when everything touched lies in front of the first keyword.
     - (models/ViewName.v) view['name'] answers relative to the view's start with the first element of the view that
       defines the name, and refuses a name no element of the view defines.
     - (models/ArgMarkers.v) the `/` and `*` markers re-derived for a parameter list from the categories of its elements
       (whatever list a put into arguments._all produced, provided the categories never go down and *vararg / **kwarg occur
       once): Python's reading of the rendered tokens gives back every parameter in the category it has in the list.
   NOT PROVED (decided by correspondence / oracle cross-check in py/props/C03.py): that the per-node-type handlers
   realise put_slice_spec on the real AST, layout independence and entry-point agreement of the implementation. *)
From Coq Require Import ZArith List Bool Lia.
From PF Require Import kernel.PyBase kernel.Container gen.Fixups models.View
  proofs.FixupsProofs proofs.ContainerProofs proofs.ViewProofs models.Arglikes proofs.ArglikesProofs models.ArgMarkers proofs.ArgMarkersProofs models.ViewName proofs.ViewNameProofs.
Import ListNotations.

Theorem C03_index_is_python_index : forall len i, (0 <= len)%Z ->
  fixup_one_index len (Ix i) 0 = py_index len i.
Proof. exact fix_one_py. Qed.
Print Assumptions C03_index_is_python_index.

Theorem C03_index_end_rejected : forall len d, (0 <= len)%Z -> (0 <= d)%Z -> fixup_one_index len End d = None.
Proof. intros len d _ _. rewrite fixup_one_eq. cbv zeta. now rewrite Z.ltb_irrefl, andb_false_r. Qed.
Print Assumptions C03_index_end_rejected.

Theorem C03_index_start_at : forall len i d k, (0 <= len)%Z -> (0 <= d)%Z ->
  fixup_one_index len (Ix i) d = Some k <->
  ((0 <= i /\ k = i + d /\ k < len) \/ (i < 0 /\ k = i + len /\ d <= k))%Z.
Proof. intros len i d k _ _. apply fix_one_start_at. Qed.
Print Assumptions C03_index_start_at.

Theorem C03_slice_is_python_slice : forall len a b, (0 <= len)%Z ->
  fixup_slice_indices len a b 0 =
    let s := py_clamp len (idx_val len a) in
    let e := py_clamp len (idx_val len b) in
    if (e <? s)%Z then None else Some (s, e).
Proof. exact fix_slice_py. Qed.
Print Assumptions C03_slice_is_python_slice.

Theorem C03_slice_start_at_range : forall len a b d s e, (0 <= d <= len)%Z ->
  fixup_slice_indices len a b d = Some (s, e) -> (d <= s <= e /\ e <= len)%Z.
Proof. exact fix_slice_start_at_range. Qed.
Print Assumptions C03_slice_start_at_range.

Theorem C03_slice_start_at_shift : forall len a b d, (0 <= d)%Z -> (0 <= a <= b)%Z -> (b + d <= len)%Z ->
  fixup_slice_indices len (Ix a) (Ix b) d = Some (a + d, b + d)%Z.
Proof. exact fix_slice_start_at_shift. Qed.
Print Assumptions C03_slice_start_at_shift.

(* a lower bound d (docstring) makes the field behave exactly like the virtual Python list real[d:] *)
Theorem C03_slice_start_at_virtual : forall len a b d, (0 <= d <= len)%Z ->
  fixup_slice_indices len a b d = option_map (shift2 d) (fixup_slice_indices (len - d) a b 0).
Proof.
  intros len a b d Hd. rewrite !fixup_slice_eq, !fix_bound_clamp, Z.sub_0_r, !Z.add_0_r by lia. cbv zeta.
  generalize (py_clamp (len - d) (idx_val (len - d) a)), (py_clamp (len - d) (idx_val (len - d) b)). intros s e.
  destruct (e <? s)%Z eqn:E1; destruct (e + d <? s + d)%Z eqn:E2; try reflexivity; lia.
Qed.
Print Assumptions C03_slice_start_at_virtual.

Theorem C03_index_start_at_virtual : forall len i d, (0 <= d <= len)%Z ->
  fixup_one_index len (Ix i) d = option_map (fun k => k + d)%Z (fixup_one_index (len - d) (Ix i) 0).
Proof. intros len i d _. apply fix_one_start_at_virtual. Qed.
Print Assumptions C03_index_start_at_virtual.

(* nothing else changes, relative order kept *)
Theorem C03_put_slice_before : forall (A : Type) (old : list A) s e new i, i < s -> s <= length old ->
  nth_error (put_slice_spec old s e new) i = nth_error old i.
Proof. exact @put_slice_nth_before. Qed.
Print Assumptions C03_put_slice_before.

Theorem C03_put_slice_mid : forall (A : Type) (old : list A) s e new i, s <= length old -> i < length new ->
  nth_error (put_slice_spec old s e new) (s + i) = nth_error new i.
Proof. exact @put_slice_nth_mid. Qed.
Print Assumptions C03_put_slice_mid.

Theorem C03_put_slice_after : forall (A : Type) (old : list A) s e new i, s <= length old ->
  nth_error (put_slice_spec old s e new) (s + length new + i) = nth_error old (e + i).
Proof. exact @put_slice_nth_after. Qed.
Print Assumptions C03_put_slice_after.

Theorem C03_put_slice_length : forall (A : Type) (old : list A) s e new, s <= e <= length old ->
  length (put_slice_spec old s e new) = length old - (e - s) + length new.
Proof. exact @put_slice_length. Qed.
Print Assumptions C03_put_slice_length.

Theorem C03_view_setitem_slice : forall (A : Type) (s : vst A) a b new s',
  setitem_slice s a b new = Some s' ->
  let n := Z.of_nat (length (vitems s)) in
  (py_clamp n a <= py_clamp n (idx_val n b))%Z /\
  Same_outside s s' (py_setslice (vitems s) a (idx_val n b) new).
Proof. exact @setitem_slice_window. Qed.
Print Assumptions C03_view_setitem_slice.

Theorem C03_view_setitem_slice_refusal : forall (A : Type) (s : vst A) a b new,
  setitem_slice s a b new = None ->
  let n := Z.of_nat (length (vitems s)) in (py_clamp n (idx_val n b) < py_clamp n a)%Z.
Proof. exact @setitem_slice_refuses. Qed.
Print Assumptions C03_view_setitem_slice_refusal.

Theorem C03_view_delitem_slice : forall (A : Type) (s : vst A) a b s',
  delitem_slice s a b = Some s' ->
  let n := Z.of_nat (length (vitems s)) in
  Same_outside s s' (py_setslice (vitems s) a (idx_val n b) []).
Proof. exact @delitem_slice_window. Qed.
Print Assumptions C03_view_delitem_slice.

Theorem C03_view_setitem_one : forall (A : Type) (s : vst A) i x s',
  setitem_one s i x = Some s' ->
  exists k, py_index (Z.of_nat (length (vitems s))) i = Some (Z.of_nat k) /\
            Same_outside s s' (replace_spec (vitems s) k x).
Proof. exact @setitem_one_window. Qed.
Print Assumptions C03_view_setitem_one.

Theorem C03_view_delitem_one : forall (A : Type) (s : vst A) i s',
  delitem_one s i = Some s' ->
  exists k, py_index (Z.of_nat (length (vitems s))) i = Some (Z.of_nat k) /\
            Same_outside s s' (remove_spec (vitems s) k).
Proof. exact @delitem_one_window. Qed.
Print Assumptions C03_view_delitem_one.

Theorem C03_view_insert : forall (A : Type) (s : vst A) i new,
  let n := Z.of_nat (length (vitems s)) in
  let k := Z.to_nat (py_clamp n (idx_val n i)) in
  Same_outside s (vinsert s i new) (put_slice_spec (vitems s) k k new).
Proof. exact @vinsert_window. Qed.
Print Assumptions C03_view_insert.

Theorem C03_view_append : forall (A : Type) (s : vst A) x, Same_outside s (vappend s x) (vitems s ++ [x]).
Proof.
  intros A s x. unfold vappend. rewrite base_unfold. pose proof (window_len s).
  apply (window_edit s (length (vitems s)) (length (vitems s))); [lia|lia|lia|cbn [length]; lia|].
  symmetry. apply append_spec_eq.
Qed.
Print Assumptions C03_view_append.

Theorem C03_view_extend : forall (A : Type) (s : vst A) xs, Same_outside s (vextend s xs) (vitems s ++ xs).
Proof.
  intros A s xs. unfold vextend. rewrite base_unfold. pose proof (window_len s). pose proof (base_bounds s).
  apply (window_edit s (length (vitems s)) (length (vitems s))); [lia|lia|lia|rewrite put_slice_length; lia|].
  symmetry. apply extend_spec_eq.
Qed.
Print Assumptions C03_view_extend.

Theorem C03_view_prepend : forall (A : Type) (s : vst A) x, Same_outside s (vprepend s x) (x :: vitems s).
Proof.
  intros A s x. unfold vprepend. rewrite base_unfold.
  apply (window_edit s 0 0); [lia|lia|lia|cbn [length]; lia|reflexivity].
Qed.
Print Assumptions C03_view_prepend.

Theorem C03_view_prextend : forall (A : Type) (s : vst A) xs, Same_outside s (vprextend s xs) (xs ++ vitems s).
Proof.
  intros A s xs. unfold vprextend. rewrite base_unfold.
  apply (window_edit_len s 0 0); [lia|lia|lia|reflexivity].
Qed.
Print Assumptions C03_view_prextend.

Theorem C03_view_replace : forall (A : Type) (s : vst A) xs, Same_outside s (vreplace s xs) xs.
Proof.
  intros A s xs. unfold vreplace. rewrite base_unfold. pose proof (window_len s).
  apply (window_edit_len s 0 (length (vitems s))); [lia|lia|lia|].
  symmetry. apply put_slice_all.
Qed.
Print Assumptions C03_view_replace.

Theorem C03_view_heals : forall (A : Type) (s : vst A) f,
  let s' := external s f in hstart s' <= hstop s' <= length f /\ hstart s' <= vstart s.
Proof. exact @external_heals. Qed.
Print Assumptions C03_view_heals.

(* ---- two AST lists, one source order: keywords edited through the merged argument list (models/Arglikes.v, correspondence with real calls) ---- *)
Theorem C03_keyword_index_mapping_right_iff_no_argument_behind : forall l i p,
  kw_pos l i = Some p -> (mapped l i = p <-> arg_after l p = false).
Proof. exact mapping_right_iff_no_argument_behind. Qed.
Print Assumptions C03_keyword_index_mapping_right_iff_no_argument_behind.

Theorem C03_keywords_guard_passes_iff_mapping_right : forall l i, (i <= count_k l)%nat ->
  (guard_refuses l i = false <-> kw_pos l i = Some (mapped l i)).
Proof. exact guard_passes_iff_mapping_right. Qed.
Print Assumptions C03_keywords_guard_passes_iff_mapping_right.

Theorem C03_keywords_slice_contiguous_once_admitted : forall l i j, (i <= j <= count_k l)%nat -> guard_refuses l i = false ->
  kw_pos l j = Some (mapped l j).
Proof. exact later_keywords_contiguous. Qed.
Print Assumptions C03_keywords_slice_contiguous_once_admitted.

Theorem C03_args_guard_passes_iff_everything_touched_is_in_front_of_the_keywords : forall l start stop has_code,
  start <= stop <= count_a l -> 0 < count_k l ->
  (args_guard_refuses l start stop has_code = false <->
   stop <= lead_a l /\ (has_code = true -> start = stop -> stop < count_a l -> stop < lead_a l)).
Proof. intros l start stop has_code [_ Hs]. now apply args_guard_passes_iff_in_front_of_keywords. Qed.
Print Assumptions C03_args_guard_passes_iff_everything_touched_is_in_front_of_the_keywords.

Theorem C03_args_in_front_of_the_keywords_have_their_merged_index : forall l i, i < lead_a l -> arg_pos l i = Some i /\ nth_error l i = Some A.
Proof. exact args_in_front_are_merged_prefix. Qed.
Print Assumptions C03_args_in_front_of_the_keywords_have_their_merged_index.

Theorem C03_parameter_markers_make_python_read_every_parameter_in_its_category : forall l, ok 0 l = true -> parse (render 1 l) = Some l.
Proof. exact markers_read_back. Qed.
Print Assumptions C03_parameter_markers_make_python_read_every_parameter_in_its_category.

Theorem C03_parameters_behind_the_positional_only_block_read_back : forall l p, (1 <= p <= 3)%nat -> ok p l = true ->
  parse_tail (Nat.leb 2 p) (render p l) = Some l.
Proof. exact tail_read_back. Qed.
Print Assumptions C03_parameters_behind_the_positional_only_block_read_back.

(* non-vacuity: a concrete view with a fixed stop, healed after an external shrink, then edited *)
Example C03_nonvacuous :
  let s := {| fld := [10; 11; 12; 13; 14]%Z; vstart := 1; vstop := Some 4 |} in
  vitems s = [11; 12; 13]%Z /\
  option_map (fun s' => (fld s', vitems s')) (setitem_slice s (-2) End [7; 8; 9]%Z)
    = Some ([10; 11; 7; 8; 9; 14]%Z, [11; 7; 8; 9]%Z) /\
  vitems (external s [1; 2]%Z) = [2]%Z /\
  fixup_slice_indices 5 (Ix (-2)) End 0 = Some (3, 5)%Z /\
  fixup_slice_indices 5 (Ix 4) (Ix 2) 0 = None.
Proof. vm_compute. repeat split; reflexivity. Qed.

(* ---- name indexing of a statement-list view (models/ViewName.v) ---- *)
Theorem C03_name_index_is_relative_to_the_view_and_names_its_first_definition_there : forall names start stop off name r,
  name_index names start stop off name = Some r ->
  r < stop - start /\ nth_error names (start + off + r) = Some (Some name)
  /\ forall j, j < r -> nth_error names (start + off + j) <> Some (Some name).
Proof.
  intros names start stop off name r H.
  pose proof (name_index_spec names start stop off name) as S. now rewrite H in S.
Qed.
Print Assumptions C03_name_index_is_relative_to_the_view_and_names_its_first_definition_there.

Theorem C03_name_index_refuses_a_name_no_element_of_the_view_defines : forall names start stop off name,
  name_index names start stop off name = None ->
  forall j, j < stop - start -> nth_error names (start + off + j) <> Some (Some name).
Proof.
  intros names start stop off name H.
  pose proof (name_index_spec names start stop off name) as S. now rewrite H in S.
Qed.
Print Assumptions C03_name_index_refuses_a_name_no_element_of_the_view_defines.

(* the module a = 0 / def f / def g / class h / b = 1 and the view [2:]: relative to the view g is element 0; without the
   view's start g gets its real index 2 and h its real index 3, which lies outside the view and is not refused *)
Theorem C03_name_index_without_the_views_start_is_wrong :
  let names := [None; Some 1; Some 2; Some 3; None] in
  name_index names 2 5 0 2 = Some 0 /\ name_index_not_relative names 2 5 0 2 = Some 2 /\ name_index_not_relative names 2 5 0 3 = Some 3.
Proof. repeat split. Qed.
Print Assumptions C03_name_index_without_the_views_start_is_wrong.
