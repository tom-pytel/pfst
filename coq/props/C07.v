(* C07 - Copying never disturbs the tree; extraction is faithful and loses nothing.

   FULL STATEMENT: copy(), get() and get_slice() leave the tree they read from byte-identical in source and identical in
   structure and positions, and return a self-contained tree that parses on its own and is structurally equal to the
   original sub-tree or sub-list (up to the documented re-indentation of docstrings). A cut returns what the copy would
   have returned and leaves what the delete would have left, and the tokens and comments of the original are exactly
   those of the remainder plus those of the extracted piece, apart from separators, parentheses and elif/else keywords
   that the move itself requires.

   PROVED HERE (text layer: kernel/Text.v get_src / put_spec, which put_src is proved equal to in C11, and
   models/Extract.v tied to _dedent_lns / _indent_lns / _make_fst_and_dedent by trace correspondence):
   - nothing is lost by a cut: putting the cut lines back at the cut point yields exactly the original line list, for
     every valid span (one line or many);
   - extraction is faithful: every character inside the copied span is found in the copy at the position the node
     offsets are shifted to (copy_ln/copy_col subtraction);
   - dedent removes leading white space only (the text after a line's indentation is unchanged, the reported column
     change is the number of characters removed and never exceeds the indentation), characters keep their identity
     under that column change, indent then dedent is the identity on every line set, and a line that carried the
     indentation is restored by re-indenting.
   - a copy reads through get_src only, which does not produce a new original: the original text is the same value
     (immutability is what the model cannot state: it is checked on the real objects by the oracle).
   NOT PROVED: that copy_loc / put_loc chosen by the slice code contain exactly the element, its trivia and separators;
   _fix_copy (parentheses, commas, elif->if); AST cloning. Decided on the implementation by py/props/C07.py (partial). *)
From Coq Require Import List NArith Arith Lia.
From PF Require Import kernel.Text models.Extract proofs.ListFacts proofs.ExtractProofs.
Import ListNotations.

Theorem C07_cut_loses_nothing : forall L ln col eln ecol,
  valid_loc L ln col eln ecol ->
  let '(piece, rest) := cut_text L ln col eln ecol in put_spec rest piece ln col ln col = L.
Proof. exact cut_put_back_text. Qed.
Print Assumptions C07_cut_loses_nothing.

Theorem C07_copy_is_faithful : forall L ln col eln ecol p,
  valid_loc L ln col eln ecol -> pos_in ln col eln ecol p ->
  char_at (copy_text L ln col eln ecol) (shift_pos ln col p) = char_at L p.
Proof. exact copy_char_faithful. Qed.
Print Assumptions C07_copy_is_faithful.

Theorem C07_dedent_removes_whitespace_only : forall d l,
  forallb is_ws d = true ->
  strip_ws (dedent_line d l) = strip_ws l /\ dedent_line d l = skipn (dedent_amount d l) l /\ dedent_amount d l <= ws_len l.
Proof.
  intros d l Hd. pose proof (dedent_amount_le d l Hd) as Hle.
  rewrite dedent_line_skipn. auto using strip_skipn.
Qed.
Print Assumptions C07_dedent_removes_whitespace_only.

Theorem C07_dedent_keeps_characters : forall d l c,
  dedent_amount d l <= c -> nth_error (dedent_line d l) (c - dedent_amount d l) = nth_error l c.
Proof. intros d l c H. rewrite dedent_line_skipn, nth_error_skipn. f_equal. lia. Qed.
Print Assumptions C07_dedent_keeps_characters.

Theorem C07_dedent_touches_only_selected_lines : forall d lns L k,
  nth_error (dedent_lns d lns L) k = option_map (fun l => if existsb (Nat.eqb k) lns then dedent_line d l else l) (nth_error L k).
Proof. intros d lns L k. unfold dedent_lns. now rewrite map_lns_nth. Qed.
Print Assumptions C07_dedent_touches_only_selected_lines.

Theorem C07_indent_then_dedent : forall d lns L, dedent_lns d lns (indent_lns d lns L) = L.
Proof. exact indent_then_dedent_lns. Qed.
Print Assumptions C07_indent_then_dedent.

Theorem C07_reindent_restores : forall d l,
  l = [] \/ line_starts_with d l = true -> indent_line d (dedent_line d l) = l \/ dedent_line d l = [].
Proof. exact indent_dedent_line. Qed.
Print Assumptions C07_reindent_restores.

(* non-vacuity: a three-line cut with a partial first and last line *)
Example C07_cut_example :
  let L := [[1;2;3]; [4;5]; [6;7;8]]%N in
  valid_loc L 0 1 2 2 /\ cut_text L 0 1 2 2 = ([[2;3]; [4;5]; [6;7]]%N, [[1;8]]%N).
Proof. split; [unfold valid_loc; simpl; repeat split; auto; discriminate|reflexivity]. Qed.
