(* C04 - Formatting and comments outside the edited element are preserved byte for byte.

   FULL STATEMENT: a structured edit changes source text only inside the extent of the element, its adjoining
   separator, its own grouping parentheses, the comment lines the trivia option selects and (for statements) blank lines
   next to it; every other non-blank line is byte-identical and in the same order; no comment is lost, duplicated or
   moved unless selected by the trivia option.

   PROVED HERE:
     L  every text change is ONE local splice (K1): lines above are kept, lines below are kept in order, the start line
        keeps its prefix and the end line its suffix - so whatever region a handler passes to _put_src, nothing outside
        that region changes;
     T  the hand transcription of leading_trivia (the function that decides which comment/blank lines above an element
        belong to it): the reported region lies between the previous code (bound) and the element, consists ONLY of
        blank / continuation / comment lines (comment lines for 'block'; blank or lone-continuation lines for the space
        part), is empty for comments='none', and contains at most n blank lines for space=n.
   NOT PROVED: trailing_trivia, the statement/separator handlers' choice of region, indentation of moved blocks:
   decided by the token-stream oracle over random edit sequences in py/props/C04.py (partial). *)
From Coq Require Import List NArith.
From PF Require Import kernel.Text models.Trivia proofs.TextProofs proofs.TriviaProofs models.TriviaParams proofs.TriviaParamsProofs.
Import ListNotations.

Theorem C04_edit_is_one_local_splice : forall L P ln col eln ecol,
  valid_loc L ln col eln ecol -> put_lines_of P <> [] ->
  put_src L P ln col eln ecol = put_spec L (put_lines_of P) ln col eln ecol.
Proof. exact put_src_is_spec. Qed.
Print Assumptions C04_edit_is_one_local_splice.

Theorem C04_lines_above_identical : forall L put ln col eln ecol i d, ln <= length L -> i < ln ->
  nth i (put_spec L put ln col eln ecol) d = nth i L d.
Proof. exact put_spec_before. Qed.
Print Assumptions C04_lines_above_identical.

Theorem C04_lines_below_identical_in_order : forall L put ln col eln ecol k d, ln <= eln < length L -> eln < k -> put <> [] ->
  nth (k - (eln - ln) + (length put - 1)) (put_spec L put ln col eln ecol) d = nth k L d.
Proof. exact put_spec_after. Qed.
Print Assumptions C04_lines_below_identical_in_order.

Theorem C04_start_line_prefix_kept : forall L put ln col eln ecol, ln <= length L -> col <= length (lineAt L ln) ->
  firstn col (nth ln (put_spec L put ln col eln ecol) []) = firstn col (lineAt L ln).
Proof. exact put_spec_start_prefix. Qed.
Print Assumptions C04_start_line_prefix_kept.

Theorem C04_end_line_suffix_kept : forall L put ln col eln ecol, ln <= length L ->
  nth (ln + (length put - 1)) (put_spec L put ln col eln ecol) [] = new_prefix L put ln col ++ skipn ecol (lineAt L eln).
Proof. exact put_spec_end_line. Qed.
Print Assumptions C04_end_line_suffix_kept.

Theorem C04_leading_trivia_bounded : forall L bl bc ln col cm sp, top_of bl bc <= ln ->
  let r := leading_trivia L bl bc ln col cm sp in
  res_text_ln r <= ln /\
  (res_text r <> (ln, col) -> top_of bl bc <= res_text_ln r) /\
  (forall s, res_space r = Some s -> top_of bl bc <= s /\ s <= res_text_ln r).
Proof. exact leading_bounds. Qed.
Print Assumptions C04_leading_trivia_bounded.

Theorem C04_no_code_in_leading_trivia : forall L bl bc ln col cm sp, top_of bl bc <= ln ->
  let r := leading_trivia L bl bc ln col cm sp in
  (res_text r <> (ln, col) -> forall i, res_text_ln r <= i < ln ->
     trivia_line (lineN L i) = true /\ (cm = CBlock -> comment_start (lineN L i) = true)) /\
  (forall s, res_space r = Some s -> forall i, s <= i < res_text_ln r -> trivia_line (lineN L i) = true).
Proof.
  intros L bl bc ln col cm sp Ht.
  destruct (leading_trivia_selects L bl bc ln col cm sp Ht) as (_ & _ & HQ & HS).
  split; [intros _ i Hi; apply selected_trivia, HQ, Hi | intros s Hs; apply HS, Hs].
Qed.
Print Assumptions C04_no_code_in_leading_trivia.

Theorem C04_comments_none_selects_nothing : forall L bl bc ln col sp, res_text (leading_trivia L bl bc ln col CNone sp) = (ln, col).
Proof. exact none_keeps_text. Qed.
Print Assumptions C04_comments_none_selects_nothing.

Theorem C04_space_limit : forall L bl bc ln col cm n s, cm <> CAll -> top_of bl bc <= ln ->
  res_space (leading_trivia L bl bc ln col cm (SInt n)) = Some s -> res_text_ln (leading_trivia L bl bc ln col cm (SInt n)) - s <= n.
Proof. intros L bl bc ln col cm n s _ Ht Hs. now apply (leading_trivia_selects L bl bc ln col cm (SInt n) Ht). Qed.
Print Assumptions C04_space_limit.

(* "x = 1" / blank / "# c1" / "# c2" / "    y = 2": block comments with up to one blank line *)
Example C04_nonvacuous :
  let L := [[120; 32; 61; 32; 49]; []; [35; 32; 99; 49]; [35; 32; 99; 50]; [32; 32; 32; 32; 121]]%N in
  leading_trivia L 0 5 4 4 CBlock (SInt 1) = ((2, 0), Some 1, true) /\
  leading_trivia L 0 5 4 4 CNone SFalse = ((4, 4), Some 4, true).
Proof. vm_compute. split; reflexivity. Qed.

(* how the `trivia` option is read (models/TriviaParams.v == fst_trivia.get_trivia_params, exhaustive correspondence) *)
(* a suffix alone is shorthand for DEFAULT-KIND + suffix: 'block' on the leading side, 'line' on the trailing side *)
Theorem C04_option_shorthand_is_default_kind : forall dflt neg x, side dflt neg (PStr None x) = side dflt neg (PStr (Some dflt) x).
Proof. intros dflt neg x. destruct x; reflexivity. Qed.
Print Assumptions C04_option_shorthand_is_default_kind.

Theorem C04_option_sides_independent : forall neg l t t' l',
  fst (params neg (OPair l t)) = fst (params neg (OPair l t')) /\ snd (params neg (OPair l t)) = snd (params neg (OPair l' t)).
Proof. split; reflexivity. Qed.
Print Assumptions C04_option_sides_independent.

(* on the trailing side a missing part, True and every shorthand (a suffix without a kind) select exactly the line comment *)
Theorem C04_option_trailing_default_selects_line_only : forall neg o,
  (exists p, o = OOne p) \/ (exists l x, o = OPair l (PStr None x)) \/ (exists l, o = OPair l (PBool true)) \/ (exists x, o = OSingle (PStr None x)) ->
  fst (fst (snd (params neg o))) = CKind KLine.
Proof.
  intros neg o [(p & ->)|[(l & x & ->)|[(l & ->)|(x & ->)]]]; try reflexivity; destruct x; reflexivity.
Qed.
Print Assumptions C04_option_trailing_default_selects_line_only.

Theorem C04_option_kind_independent_of_suffix : forall dflt neg k x y,
  fst (fst (side dflt neg (PStr k x))) = fst (fst (side dflt neg (PStr k y))).
Proof. intros dflt neg k x y. destruct x, y; reflexivity. Qed.
Print Assumptions C04_option_kind_independent_of_suffix.
