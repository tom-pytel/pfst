(* C06 - Every reported location denotes exactly the text of its node.

   FULL STATEMENT: for every node with a location the text at that location is exactly the node's own source, first to
   last token; operator / computed locations cover exactly their tokens; argument lists span the text between their
   delimiters; parenthesis queries report exactly the balanced grouping parentheses of the node; children lie inside
   parents, siblings follow each other without overlap in syntax order; character-based and byte-based coordinates
   agree for any mix of ASCII and multi-byte text; the by-location searches return what a brute-force scan returns.

   PROVED HERE (coordinate layer, models/Bistr.v tied to astutil.bistr by correspondence): the char->byte map is the
   number of encoded bytes before the character and strictly increasing; byte->char is its left inverse (including the
   one-past-the-end index) and maps any byte index to the character containing it; on all-ASCII lines both are the
   identity (the implementation's fast path). Nesting/ordering of spans is the `Ordered` predicate of K2, preserved /
   used there.
   - (models/FindLoc.v: the search loop of find_contains_loc over the walk of the descendants, with its four cases -
     passed over, starts behind, ends too early and skipped, entered; tied to the method by correspondence on encoded trees)
     on every tree whose children lie inside their parent, in order and without overlap, the node returned is the root or
     holds the span, and none of its children holds it: it is the lowest node that contains the span.
   - (models/FindLoc.v find_in) find_in_loc answers with the FIRST node of the walk over the descendants that lies within the span: what it
     returns lies within, and when it returns nothing no descendant does (overlapping siblings included).
   - (models/FindLoc.v, allow_exact = 'top' / False) relative to the path of nodes the default search enters (on a well-formed
     tree a chain: each a child of the one before, each holding the span): 'top' returns the FIRST node on that path whose
     location is exactly the span - the highest of several nodes at one location - and otherwise what the default search returns;
     False returns the node in front of that first exact node; allow_exact=True is the default search.
   NOT PROVED: the source scanners (next_frag, prev_frag, next_find, delimiters), pars(), the computed locations,
   find_loc: decided by the tokenize-based oracle and the brute-force search oracle in py/props/C06.py (partial). *)
From Coq Require Import List NArith Arith.
From PF Require Import kernel.PyBase kernel.Text models.Bistr proofs.BistrProofs models.FindLoc proofs.FindLocProofs.
Import ListNotations.

Theorem C06_c2b_is_bytes_before_char : forall l i, c2b l i = blen_nat (firstn i l).
Proof. reflexivity. Qed.
Print Assumptions C06_c2b_is_bytes_before_char.

Theorem C06_c2b_strictly_increasing : forall l i i', i < i' <= length l -> c2b l i < c2b l i'.
Proof. exact c2b_strict_mono. Qed.
Print Assumptions C06_c2b_strictly_increasing.

Theorem C06_b2c_inverts_c2b : forall l i, i <= length l -> b2c l (c2b l i) = i.
Proof. exact b2c_c2b. Qed.
Print Assumptions C06_b2c_inverts_c2b.

Theorem C06_b2c_finds_containing_char : forall l j, j < blen_nat l -> c2b l (b2c l j) <= j < c2b l (S (b2c l j)).
Proof. exact c2b_b2c_bracket. Qed.
Print Assumptions C06_b2c_finds_containing_char.

Theorem C06_b2c_end : forall l, b2c l (blen_nat l) = length l.
Proof. intros l. rewrite <- c2b_len. apply b2c_c2b, Nat.le_refl. Qed.
Print Assumptions C06_b2c_end.

Theorem C06_ascii_fast_path : forall l, is_ascii l = true ->
  (forall i, i <= length l -> c2b l i = i) /\ (forall j, j <= length l -> b2c l j = j).
Proof. exact ascii_identity. Qed.
Print Assumptions C06_ascii_fast_path.

Theorem C06_find_contains_loc_returns_the_lowest_containing_node : forall a b root, wf root = true ->
  let r := descend (size root) a b root in
  (r = root \/ holds a b r) /\ forall c, In c (kids r) -> ~ holds a b c.
Proof. intros a b root Hw. exact (descend_spec a b (size root) root (Nat.le_refl _) Hw). Qed.
Print Assumptions C06_find_contains_loc_returns_the_lowest_containing_node.

Theorem C06_find_scan_over_descendants_is_the_scan_over_children : forall a b cs lo fuel, ordered lo cs = true -> forallb wf cs = true -> sizes cs < fuel ->
  scan fuel a b cs = lscan a b cs.
Proof. intros a b cs lo fuel _. apply scan_is_lscan. Qed.
Print Assumptions C06_find_scan_over_descendants_is_the_scan_over_children.

Theorem C06_find_in_loc_returns_the_first_node_of_the_walk_within_the_span : forall a b fuel todo, sizes todo < fuel ->
  scan_in fuel a b todo = find (fun x => inside x a b) (descs todo).
Proof. exact scan_in_is_first. Qed.
Print Assumptions C06_find_in_loc_returns_the_first_node_of_the_walk_within_the_span.

Theorem C06_find_in_loc_sound_and_complete : forall a b fuel todo, sizes todo < fuel ->
  (forall x, scan_in fuel a b todo = Some x -> within a b x /\ In x (descs todo)) /\
  (scan_in fuel a b todo = None -> forall x, In x (descs todo) -> ~ within a b x).
Proof.
  intros a b fuel todo Hf. rewrite scan_in_is_first by exact Hf. split.
  - intros x H. apply find_some in H. split; [apply inside_within|]; apply H.
  - intros H x I W. apply inside_within in W. rewrite (find_none _ _ H x I) in W. discriminate.
Qed.
Print Assumptions C06_find_in_loc_sound_and_complete.

Theorem C06_find_contains_loc_top_returns_the_first_exact_node_on_the_descent : forall a b fuel self,
  descend_m MTop fuel a b self = first_or (fun x => exact x a b) (path fuel a b self) (last (path fuel a b self) self).
Proof. intros a b. exact (descend_m_path a b MTop). Qed.
Print Assumptions C06_find_contains_loc_top_returns_the_first_exact_node_on_the_descent.

Theorem C06_find_contains_loc_strict_stops_above_the_first_exact_node : forall a b fuel self,
  descend_m MStrict fuel a b self = before_first (fun x => exact x a b) (path fuel a b self) self.
Proof. intros a b. exact (descend_m_path a b MStrict). Qed.
Print Assumptions C06_find_contains_loc_strict_stops_above_the_first_exact_node.

Theorem C06_find_contains_loc_default_is_the_end_of_the_descent : forall a b fuel self,
  descend_m MExact fuel a b self = descend fuel a b self /\ descend fuel a b self = last (path fuel a b self) self.
Proof. intros a b fuel self. rewrite (descend_m_path a b MExact). split; [symmetry|]; apply descend_last. Qed.
Print Assumptions C06_find_contains_loc_default_is_the_end_of_the_descent.

Theorem C06_find_descent_is_a_chain_of_children_holding_the_span : forall a b fuel self, size self <= fuel -> wf self = true ->
  chain a b self (path fuel a b self).
Proof. intros a b fuel self Hf Hw. exact (proj1 (path_spec a b fuel self Hf Hw)). Qed.
Print Assumptions C06_find_descent_is_a_chain_of_children_holding_the_span.

(* "aé€😀b": widths 1,2,3,4,1 *)
Example C06_nonvacuous :
  let l := [97; 233; 8364; 128512; 98]%N in
  c2b_array l = [0; 1; 3; 6; 10; 11] /\ b2c_array l = [0; 1; 1; 2; 2; 2; 3; 3; 3; 3; 4; 5] /\ is_ascii l = false.
Proof. vm_compute. repeat split; reflexivity. Qed.
