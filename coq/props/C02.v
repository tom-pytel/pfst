(* C02 - An edited tree is observationally identical to a fresh parse of its own source.

   FULL STATEMENT: after any edit sequence every query (locations, parentheses, own source, parent/field/index links,
   navigation, views and their lengths, predicates, docstring lookup) answers as on a tree freshly built from the current
   source; results never depend on which queries were made before (no stale cache); the root keeps its identity.

   PROVED HERE:
     P  positions: for every history of offset passes the nodes end exactly where the position map puts them (K2:
        the walk changes every node the rule changes - so no node is left with a stale POSITION);
     C  caches of position-determined answers (models/Cache.v: visited nodes are moved and flushed, unvisited nodes are
        left alone): coherence `cached v -> v = answer(current position)` is preserved by every interleaving of queries
        and passes, positions do not depend on the queries made, hence the answer obtained after any history equals the
        answer of a tree on which no query was ever made (no stale cache);
     V  views heal to a window inside the field after any external length change (C03_view_heals).
   NOT PROVED: caches whose answer also reads source TEXT beyond the node (bloc, pars), the link structure
   (parent/pfield/a/f) and object identity: decided by the query-battery oracle in py/props/C02.py, which compares ~25
   queries on every node of the live tree with a fresh tree after every edit, under two different query schedules. *)
From Coq Require Import List ZArith.
From PF Require Import kernel.OffsetBase models.Offset models.Cache models.View
  proofs.OffsetProofs proofs.CacheProofs proofs.ViewProofs.
Import ListNotations.

Theorem C02_no_node_keeps_a_stale_position : forall lno colo dln dcol tail head excl oe t, Ordered t ->
  fst (walk_tree lno colo dln dcol tail head excl oe t) = map_tree lno colo dln dcol tail head excl oe t.
Proof. exact walk_map. Qed.
Print Assumptions C02_no_node_keeps_a_stale_position.

Theorem C02_cache_coherent_along_any_history : forall answer ops l,
  Forall (coherent answer) l -> Forall (coherent answer) (fold_left (cstep answer) ops l).
Proof. exact coherent_history. Qed.
Print Assumptions C02_cache_coherent_along_any_history.

Theorem C02_positions_independent_of_queries : forall answer ops l l', positions l = positions l' ->
  positions (fold_left (cstep answer) ops l) = positions (fold_left (cstep answer) (no_asks ops) l').
Proof. exact positions_query_independent. Qed.
Print Assumptions C02_positions_independent_of_queries.

Theorem C02_answers_independent_of_earlier_queries : forall answer ops l l' i n n',
  Forall (coherent answer) l -> Forall (coherent answer) l' -> positions l = positions l' ->
  nth_error (fold_left (cstep answer) ops l) i = Some n ->
  nth_error (fold_left (cstep answer) (no_asks ops) l') i = Some n' ->
  snd (ask answer n) = snd (ask answer n').
Proof. exact answers_query_independent. Qed.
Print Assumptions C02_answers_independent_of_earlier_queries.

Theorem C02_view_heals : forall (A : Type) (s : vst A) f,
  let s' := external s f in hstart s' <= hstop s' <= length f /\ hstart s' <= vstart s.
Proof. exact @external_heals. Qed.
Print Assumptions C02_view_heals.

Example C02_nonvacuous :
  let ans := fun p : npos => let '(l, c, el, ec) := p in (ec - c)%Z in
  let n0 := {| c_pos := (1, 0, 1, 3)%Z; c_cache := None |} in
  let mv := fun p : npos => let '(l, c, el, ec) := p in (l, c, el, (ec + 2)%Z) in
  map (fun n => snd (ask ans n)) (fold_left (cstep ans) [Ask 0; Pass mv [true]; Ask 0] [n0]) = [5%Z] /\
  Forall (coherent ans) [n0].
Proof. split; [reflexivity|]. constructor; [intros v; cbn; discriminate|constructor]. Qed.
