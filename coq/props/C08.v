(* C08 - Putting back what was taken restores the tree; accessors read back writes.

   FULL STATEMENT: cutting any element or slice and putting it back at the same place, or replacing any node by its own
   copy, its own pure AST or its own source text, yields a tree structurally equal to the original; own_src parses back
   to the node. A docstring or line comment written through the dedicated accessor is read back unchanged (for any
   text whose first line does not start with whitespace), and AST values always equal what the new source denotes.

   PROVED HERE
   (quoting, models/StrRepr.v tied to astutil.repr_str_multiline by correspondence): for EVERY string - any mix of
   both quote characters, backslashes, newlines, tabs, NUL, other non-printable and printable characters - the literal
   produced by repr_str_multiline is read back by CPython's triple-quoted literal reader (scanner + escape evaluation,
   transcribed as `decode`) as exactly that string: quote selection, escaping of a final quote character and the
   repr()+three-replaces fallback (the NUL placeholder trick) included.
   (indentation): get_docstr's per-line dedent inverts the indentation the put applies to the literal's lines, for
   every text whose first line does not start with whitespace.
   (container layer, kernel/Container.v): cut-then-put-back, put-own-slice and read-after-write laws of the slice
   semantics every list field is refined to in C03; (tree layer) replacing the node at a path by itself is the
   identity, a node written at a path is read back there and all nodes on disjoint paths are untouched.
   NOT PROVED: that the concrete put/cut code realises these laws for each field's separators, parentheses and trivia,
   code_as_* normalisation, own_src, the line-comment accessor: decided on the real implementation by py/props/C08.py
   (partial). *)
From Coq Require Import List Bool.
From PF Require Import kernel.Container models.StrRepr proofs.StrReprProofs proofs.ContainerProofs proofs.RoundTripProofs.
Import ListNotations.

Theorem C08_docstring_literal_round_trip : forall s : pystr, decode (repr_str_multiline s) = Some s.
Proof. exact repr_str_multiline_round_trip. Qed.
Print Assumptions C08_docstring_literal_round_trip.

Theorem C08_docstring_indent_round_trip : forall ind ls,
  Forall (fun c => is_ws c = true) ind ->
  match ls with f :: _ => no_leading_ws f | [] => True end ->
  get_docstr_lines ind (put_docstr_lines ind ls) = ls.
Proof. exact docstr_lines_round_trip. Qed.
Print Assumptions C08_docstring_indent_round_trip.

Theorem C08_cut_put_back : forall (A : Type) (l : list A) s e,
  s <= e -> put_slice_spec (del_slice_spec l s e) s s (get_slice_spec l s e) = l.
Proof. intros A. exact (@del_put_back A). Qed.
Print Assumptions C08_cut_put_back.

Theorem C08_put_own_slice : forall (A : Type) (l : list A) s e, s <= e -> put_slice_spec l s e (get_slice_spec l s e) = l.
Proof. intros A. exact (@put_get_id A). Qed.
Print Assumptions C08_put_own_slice.

Theorem C08_read_after_write : forall (A : Type) (l : list A) s e new,
  s <= length l ->
  get_slice_spec (put_slice_spec l s e new) s (s + length new) = new /\
  firstn s (put_slice_spec l s e new) = firstn s l /\
  skipn (s + length new) (put_slice_spec l s e new) = skipn e l.
Proof.
  intros A l s e new H. split; [|split].
  - exact (get_put_slice l s e new H).
  - exact (put_slice_firstn l s e new H).
  - exact (put_slice_skipn l s e new H).
Qed.
Print Assumptions C08_read_after_write.

Theorem C08_replace_by_self : forall p t k, subtree p t = Some k -> replace_at p t k = t.
Proof. exact replace_by_self. Qed.
Print Assumptions C08_replace_by_self.

Theorem C08_node_read_back : forall p t k new, subtree p t = Some k -> subtree p (replace_at p t new) = Some new.
Proof. exact subtree_after_replace. Qed.
Print Assumptions C08_node_read_back.

Theorem C08_disjoint_untouched : forall p q t new,
  is_prefix p q = false -> is_prefix q p = false -> subtree q (replace_at p t new) = subtree q t.
Proof. exact subtree_disjoint. Qed.
Print Assumptions C08_disjoint_untouched.

(* non-vacuity: a string that takes the fallback route (both kinds of triple quotes, a backslash, a newline, a NUL) and
   one that needs its final quote escaped *)
Example C08_fallback_example :
  let s := [DQ; DQ; DQ; P 1; SQ; SQ; SQ; BS; Ln; NL; NUL; BS] in
  has_triple DQ (escaped s) && has_triple SQ (escaped s) = true /\ decode (repr_str_multiline s) = Some s.
Proof. split; reflexivity. Qed.

Example C08_final_quote_example :
  let s := [SQ; SQ; SQ; P 1; DQ] in repr_str_multiline s = [DQ; DQ; DQ; SQ; SQ; SQ; P 1; BS; DQ; DQ; DQ; DQ].
Proof. reflexivity. Qed.
