(* C16 - Scope analysis agrees with Python's own symbol table.

   FULL STATEMENT: for any module, function, lambda, class or comprehension, the scope-restricted walk yields exactly
   the nodes that belong to that scope under Python's rules (decorators, defaults, annotations, base classes and the
   first iterable of a comprehension belong to the enclosing scope; walrus targets inside comprehensions belong to the
   enclosing function). scope_symbols() reports exactly the names Python's compiler records for that scope, classified
   the same way as loaded, stored, deleted, declared global/nonlocal, local and free.

   PROVED HERE (models/Scope.v: nodes are plain or open a scope, each scope node's children are split into the parts
   belonging to the enclosing scope and its own parts, walrus flag on targets; tied to walk(scope=True) by
   correspondence on encoded real trees):
   - for EVERY tree with unique node ids and EVERY scope root (function-like or comprehension, at any nesting depth) the
     scope-restricted walk - descend through plain nodes, take only the outer parts of nested scopes, hoist walrus
     targets out of nested comprehensions - yields exactly the nodes the declarative rule assigns to that scope, where
     the rule gives a walrus target to its comprehension, to every enclosing comprehension and to the nearest
     function-like scope;
   - without walrus targets every node of the tree is assigned to exactly one scope (the scope walks partition it).
   - (models/Symbols.v: the classification half of scope_symbols over the events - load / store / del / global / nonlocal /
     walrus-target-of-a-comprehension-root - that the nodes of the scope contribute in walk order; tied to
     scope_symbols(full=True) by correspondence of all seven dictionaries, keys in order) for a function-like scope
     'free' is exactly the compiler's "used, not bound, not declared", 'local' is the compiler's local minus the names
     that are only deleted (documented), no name is both local and free, a declared name is neither; a walrus target of a
     comprehension root is stored but never local to the comprehension and is reported free unless bound there otherwise.
   NOT PROVED: that CPython's symbol table follows the same rule (the oracle compares scope_symbols with the symtable
   module for every scope), the per-node-class split into outer/inner parts used by the encoder (it is the property's
   own list), which event a node class contributes (re-derived by the harness). Decided by py/props/C16.py (partial). *)
From Coq Require Import List.
From PF Require Import models.Scope proofs.ScopeProofs models.Symbols proofs.SymbolsProofs.
Import ListNotations.

Theorem C16_scope_walk_is_the_rule : forall i comp w outer inner above x,
  NoDup (ids (SN i (KScope comp) w outer inner)) -> NoDup (i :: above) ->
  (forall c', In c' (i :: above) -> ~ In c' (flat_map ids inner)) ->
  (In x (own (SN i (KScope comp) w outer inner)) <-> In (x, i) (flat_map (assign (i :: above)) inner)).
Proof. intros i comp w outer inner above x _ Hnd Hdis. apply own_is_assigned; [now inversion Hnd|apply Hdis; now left]. Qed.
Print Assumptions C16_scope_walk_is_the_rule.

Theorem C16_one_scope_per_node : forall t cur above x,
  no_walrus t = true -> NoDup (ids t) ->
  (In x (ids t) -> exists c, In (x, c) (assign (cur :: above) t)) /\
  (forall c c', In (x, c) (assign (cur :: above) t) -> In (x, c') (assign (cur :: above) t) -> c = c').
Proof.
  intros t cur above x Hw Hids. rewrite <- (assign_fst t cur above Hw) in *. split.
  - intros Hin. apply in_map_iff in Hin as ([y c] & <- & Hin). now exists c.
  - intros c c' H1 H2. now injection (ListFacts.NoDup_map_inj fst _ Hids _ _ H1 H2 eq_refl).
Qed.
Print Assumptions C16_one_scope_per_node.

Theorem C16_free_is_the_compilers_free : forall evs n, no_walrus_ev evs ->
  (In n (s_free (classify false evs)) <-> py_free n evs).
Proof. intros evs n NW. specialize (NW n). rewrite free_In_fun. unfold py_free, occurs in *. tauto. Qed.
Print Assumptions C16_free_is_the_compilers_free.

Theorem C16_local_is_the_compilers_local_minus_deleted_only : forall evs n, no_walrus_ev evs ->
  (In n (s_local (classify false evs)) <-> occurs KStore n evs /\ ~ declared n evs) /\
  (py_local n evs <-> In n (s_local (classify false evs)) \/ (occurs KDel n evs /\ ~ occurs KStore n evs /\ ~ declared n evs)).
Proof.
  intros evs n NW.
  assert (L : In n (s_local (classify false evs)) <-> occurs KStore n evs /\ ~ declared n evs).
  { rewrite local_In. specialize (NW n). unfold declared, occurs in *. intuition congruence. }
  split; [exact L|]. rewrite L. unfold py_local, occurs.
  destruct (in_dec ev_dec (KStore, n) evs); tauto.
Qed.
Print Assumptions C16_local_is_the_compilers_local_minus_deleted_only.

Theorem C16_local_free_declared_are_disjoint : forall comp evs n,
  (In n (s_local (classify comp evs)) -> ~ In n (s_free (classify comp evs))) /\
  (In n (s_global (classify comp evs)) \/ In n (s_nonlocal (classify comp evs)) ->
   ~ In n (s_local (classify comp evs)) /\ (comp = false -> ~ In n (s_free (classify comp evs)))).
Proof.
  intros comp evs n. rewrite local_In, global_In, nonlocal_In.
  destruct comp; [rewrite free_In_comp|rewrite free_In_fun]; unfold declared, occurs; intuition congruence.
Qed.
Print Assumptions C16_local_free_declared_are_disjoint.

Theorem C16_walrus_target_of_a_comprehension_root : forall evs n, In (KWalrus, n) evs ->
  ~ In n (s_local (classify true evs)) /\
  (~ In (KStore, n) evs -> In n (s_free (classify true evs))) /\ In n (s_store (classify true evs)).
Proof. intros evs n W. rewrite local_In, free_In_comp, store_In. unfold occurs. tauto. Qed.
Print Assumptions C16_walrus_target_of_a_comprehension_root.

(* non-vacuity: def f(d=D): [w := x for x in IT]  - f is 1; D (2) is outer; the comprehension 3 with first iterable IT (4)
   outer and body (5 = walrus target w, 6 = x) inner *)
Example C16_example :
  let comp := SN 3 (KScope true) false [SN 4 KPlain false [] []] [SN 5 KPlain true [] []; SN 6 KPlain false [] []] in
  let f := SN 1 (KScope false) false [SN 2 KPlain false [] []] [comp] in
  own f = [3; 4; 5] /\ own comp = [5; 6] /\ visit f = [1; 2].
Proof. repeat split. Qed.
