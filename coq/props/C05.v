(* C05 - Parsing is lossless and agrees with Python's parser in every parse mode.

   FULL STATEMENT: building a tree from source keeps the source text unchanged and produces exactly the tree Python's
   parser produces (types, values, contexts, positions); for the extended modes that parse fragments Python cannot parse
   alone the result equals the corresponding sub-tree of the full construct that contains the fragment, with positions
   relative to the fragment. Source that is invalid for a mode is rejected and never parsed into something else because
   of the wrapper used.

   PROVED HERE (models/Wrap.v, tied to parsex.py by correspondence; the byte/character column maps are C06):
   - wrapper geometry: in the embedding  prefix NEWLINE fragment NEWLINE suffix  every character and every span lying on
     fragment lines is found one line down, unchanged, so moving the parse result up by one line (_offset_linenos -1)
     and leaving columns alone makes every node denote, in the fragment, exactly the text it denotes in the embedding;
   - delimiter guard: the counting loop of _verify_no_close_delimiters accepts a text iff no prefix closes more
     delimiters than it opened; an accepted, balanced fragment leaves the wrapper's opening delimiter to be closed by
     the wrapper's own closing delimiter right after the fragment; a refused one would have closed it inside the
     fragment (which is how  ')+('  or  'a),(b'  would otherwise parse to something valid but unexpected).
   NOT PROVED: CPython's parser (the oracle), the per-mode choice of wrapper and the per-mode guards that are not the
   delimiter count (return annotation, lambda body, element counts): decided by py/props/C05.py against embeddings
   written independently of parsex.py, with a hostile fragment stream per mode (partial). *)
From Coq Require Import List ZArith Lia.
From PF Require Import kernel.Text models.Extract models.Wrap proofs.WrapProofs.
Import ListNotations.

Theorem C05_wrapper_keeps_characters : forall pre post L p,
  1 <= fst p <= length L -> char_at (wrap pre post L) p = char_at L (unwrap_pos p).
Proof. intros pre post L p H. apply (wrapn_char [pre]). cbn [length]. lia. Qed.
Print Assumptions C05_wrapper_keeps_characters.

Theorem C05_wrapper_keeps_spans : forall pre post L ln col eln ecol,
  ln <= eln < length L ->
  get_src (wrap pre post L) (S ln) col (S eln) ecol = get_src L ln col eln ecol.
Proof. intros pre. exact (wrapn_span [pre]). Qed.
Print Assumptions C05_wrapper_keeps_spans.

Theorem C05_wrapper_keeps_spans_any_prefix : forall pres post L ln col eln ecol,
  ln <= eln < length L ->
  get_src (wrapn pres post L) (length pres + ln) col (length pres + eln) ecol = get_src L ln col eln ecol.
Proof. exact wrapn_span. Qed.
Print Assumptions C05_wrapper_keeps_spans_any_prefix.

Theorem C05_guard_is_prefix_depth : forall s,
  (exists n, guard 0 s = Some n) <-> (forall k, k <= length s -> (0 <= depth (firstn k s))%Z).
Proof. intros s. exact (guard_some_iff s 0). Qed.
Print Assumptions C05_guard_is_prefix_depth.

Theorem C05_accepted_fragment_keeps_wrapper_open : forall s rest,
  (exists n, guard 0 s = Some n) -> depth s = 0%Z -> closer_index 0 (s ++ DClose :: rest) = Some (length s).
Proof.
  intros s rest Hg Hd. rewrite closer_index_app by (apply guard_some_iff, Hg).
  rewrite Hd. cbn. now rewrite Nat.add_0_r.
Qed.
Print Assumptions C05_accepted_fragment_keeps_wrapper_open.

Theorem C05_refused_fragment_would_close_wrapper : forall s rest,
  guard 0 s = None -> exists i, i < length s /\ closer_index 0 (s ++ rest) = Some i.
Proof. intros s rest. apply refused_closes. Qed.
Print Assumptions C05_refused_fragment_would_close_wrapper.

(* non-vacuity:  a),(b  is refused and would close the wrapper at index 1;  (a)+(b)  is accepted *)
Example C05_guard_examples :
  guard 0 [DOther; DClose; DOther; DOpen; DOther] = None /\
  closer_index 0 ([DOther; DClose; DOther; DOpen; DOther] ++ [DClose]) = Some 1 /\
  guard 0 [DOpen; DOther; DClose; DOther; DOpen; DOther; DClose] = Some 0.
Proof. repeat split. Qed.
