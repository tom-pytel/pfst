(* C10 - Raw source edits are equivalent to re-parsing the whole file, or change nothing.

   FULL STATEMENT: put_src(..., action='reparse'), raw-mode puts and reparse() either raise and leave source and tree
   exactly as they were, or leave the source equal to the requested text splice and the tree equal, in structure and in
   all positions, to a from-scratch parse of that new source. They succeed exactly when the new whole source is valid for
   the root's kind, and the root object keeps its identity.

   PROVED HERE
   (atomicity, gen/RawEffects.v REGENERATED from fst_raw.py on every run + models/Atomic.v): every control-flow path of
   _reparse_raw (with _reparse_raw_stmtlike and _reparse_raw_base inlined, try/except edges and the boolean `done` flag
   followed) is `ordered`: no atom that may raise (parsers, explicit raise, assert) comes after an atom that mutates the
   live tree or its source. For ordered paths, under ANY pattern of failures a run that raises leaves the live state
   version untouched, and a run that does not raise has performed all its mutations; an unordered path always has a
   failure pattern that leaves a changed state behind (so the check is exact, not merely sufficient). The statement-level
   attempt alone is ordered too, which is what the whole-source fallback added by the fix relies on.
   (splice) the five-branch line surgery of _put_src equals the one algebraic text splice (C11's put_src_is_spec), so a
   successful edit leaves exactly the requested splice.
   (scaffold, models/Scaffold.v) the copy of the source in which a column-0 statement is reparsed alone - the lines above it
   blanked - receives an edit that starts at or below the statement's first line exactly as the real source does (the copy after
   the edit IS the blanked new source); an edit above that line is lost in the copy, which is why the incremental path must
   refuse it (the guard `(ln, col) < (pln, pcol) -> _ReparseAll` of fix bc997e5; every recorded call is checked against it).
   NOT PROVED: that the statement-level reparse in its synthetic wrapper yields the tree a whole-file parse yields (needs
   the grammar), that FST._put_src / _set_ast themselves do not raise half way, root identity. Decided by the
   differential oracle of py/props/C10.py (partial). *)
From Coq Require Import List.
From PF Require Import kernel.Text models.Atomic models.Scaffold gen.RawEffects proofs.AtomicProofs proofs.TextProofs
  proofs.ScaffoldProofs.
Import ListNotations.

Theorem C10_raw_reparse_paths_are_ordered :
  forallb ordered raw_paths = true /\ forallb ordered stmtlike_paths = true.
Proof. split; vm_compute; reflexivity. Qed.
Print Assumptions C10_raw_reparse_paths_are_ordered.

Theorem C10_ordered_is_atomic : forall p, ordered p = true ->
  forall fails st, snd (run p fails st) = true -> fst (run p fails st) = st.
Proof. exact ordered_atomic. Qed.
Print Assumptions C10_ordered_is_atomic.

Theorem C10_raw_reparse_raises_or_completes : forall p, In p raw_paths ->
  forall fails st,
    (snd (run p fails st) = true -> fst (run p fails st) = st) /\
    (snd (run p fails st) = false -> fst (run p fails st) = st + count_mut p).
Proof.
  intros p Hin fails st. split.
  - apply ordered_atomic.
    destruct C10_raw_reparse_paths_are_ordered as [H _]. rewrite forallb_forall in H. apply H. exact Hin.
  - apply completed_run_does_everything.
Qed.
Print Assumptions C10_raw_reparse_raises_or_completes.

Theorem C10_unordered_would_not_be_atomic : forall p, ordered p = false ->
  exists fails st, snd (run p fails st) = true /\ fst (run p fails st) <> st.
Proof. exact unordered_not_atomic. Qed.
Print Assumptions C10_unordered_would_not_be_atomic.

Theorem C10_success_leaves_the_splice : forall L P ln col eln ecol,
  valid_loc L ln col eln ecol -> put_lines_of P <> [] ->
  put_src L P ln col eln ecol = put_spec L (put_lines_of P) ln col eln ecol.
Proof. exact put_src_is_spec. Qed.
Print Assumptions C10_success_leaves_the_splice.

(* non-vacuity: the generated table contains paths that raise before mutating and paths that mutate *)
Example C10_paths_nontrivial :
  existsb (fun p => existsb (fun a => match a with AMut => true | _ => false end) p) raw_paths = true /\
  existsb (fun p => existsb (fun a => match a with ARaise => true | _ => false end) p) raw_paths = true /\
  ordered [ARaise; AMut; ARaise] = false.
Proof. repeat split. Qed.

(* the text the statement-level reparse sees (models/Scaffold.v) *)
Theorem C10_scaffold_copy_receives_the_edit_like_the_real_source : forall L put pln ln col eln ecol,
  pln <= ln -> ln <= eln -> ln <= length L ->
  put_spec (scaffold L pln) put ln col eln ecol = scaffold (put_spec L put ln col eln ecol) pln.
Proof. exact scaffold_sees_edit_below. Qed.
Print Assumptions C10_scaffold_copy_receives_the_edit_like_the_real_source.

Theorem C10_scaffold_copy_is_the_new_source_below_and_blank_above : forall L put pln ln col eln ecol,
  pln <= ln -> ln <= eln -> ln <= length L ->
  skipn pln (put_spec (scaffold L pln) put ln col eln ecol) = skipn pln (put_spec L put ln col eln ecol)
  /\ blank_above (put_spec (scaffold L pln) put ln col eln ecol) pln = true.
Proof.
  intros L put pln ln col eln ecol Hp Hle Hlen. rewrite scaffold_sees_edit_below by assumption.
  split; [now apply skipn_scaffold | apply blank_above_scaffold].
Qed.
Print Assumptions C10_scaffold_copy_is_the_new_source_below_and_blank_above.

Theorem C10_edit_above_the_scaffold_start_is_lost :
  exists L put pln ln col eln ecol, ln < pln /\
    blank_above (put_spec L put ln col eln ecol) pln = false /\ blank_above (put_spec (scaffold L pln) put ln col eln ecol) pln = true
    /\ skipn pln (put_spec (scaffold L pln) put ln col eln ecol) = skipn pln L.
Proof. exact scaffold_misses_edit_above. Qed.
Print Assumptions C10_edit_above_the_scaffold_start_is_lost.
