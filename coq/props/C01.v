(* C01 - After any successful edit the source text still parses to exactly the live tree.

   FULL STATEMENT: after every structured edit that returns normally (with parenthesization and normalization
   enabled) the source, parsed from scratch by CPython, equals the live tree in types, fields, contexts and every
   node's extent; after each step of an arbitrarily long edit sequence, for any layout.

   The statement splits into (F) FRAME - everything outside the edited element keeps its text and gets the right new
   position, containers grow by exactly the splice - and (E) ELEMENT - the text put for the new element parses, in
   that slot, to the new sub-tree.

   PROVED HERE (F), for every text, tree, region and replacement:
     - every edit primitive is a local text splice (K1) and the TRANSLATED offset parameters locate the kept text;
     - the TRANSLATED per-node rule is the intended position map and the walk applies it to every node (K2);
     - single-expression replacement (the three _offset calls of _make_exprlike_fst): every surviving node ends up
       at mode_map(...) - before the region: fixed; after: rigidly moved; containers: grown - and every node of the
       new sub-tree at its standalone position moved rigidly to the put location.
     - putting delimiters around a node T (par() / automatic parenthesization: _delimit_node, _parenthesize_grouping, whose
       _put_src / _offset flags are TRANSLATED): every node that is not around T - before it, after it (also one that starts
       exactly where T ended, the format specification of an f-string field) or below it - ends up exactly where its characters
       are; T's ancestors keep their start and grow by the delimiters; T grows by both (Tuple) or moves with its text (grouping).
   (E) for expression slots is C09's theorem.  NOT PROVED: (E) for separator lists and statement blocks, the
   per-(type,field) handler glue, and preservation of `Ordered` along sequences: decided by the oracle cross-check over
   random edit sequences (py/props/C01.py); OH1 (CPython positions = token extents) is an oracle hypothesis. *)
From Coq Require Import ZArith List.
From PF Require Import kernel.PyBase kernel.Text kernel.OffsetBase gen.ParamsOffset gen.DelimitCalls models.Offset
  models.Delimit proofs.TextProofs proofs.ParamsOffsetProofs proofs.OffsetProofs proofs.DelimitProofs.
Import ListNotations.

Theorem C01_every_put_is_one_splice : forall L P ln col eln ecol,
  valid_loc L ln col eln ecol -> put_lines_of P <> [] ->
  put_src L P ln col eln ecol = put_spec L (put_lines_of P) ln col eln ecol.
Proof. exact put_src_is_spec. Qed.
Print Assumptions C01_every_put_is_one_splice.

Theorem C01_text_after_splice_located_by_params : forall L put ln col eln ecol k,
  ln <= length L -> ecol <= length (lineAt L eln) ->
  bskip (blen_nat (new_prefix L put ln col) + k) (nth (ln + (length put - 1)) (put_spec L put ln col eln ecol) [])
  = bskip (c2b (lineAt L eln) ecol + k) (lineAt L eln).
Proof. exact end_line_suffix_bytes. Qed.
Print Assumptions C01_text_after_splice_located_by_params.

Theorem C01_params_offset_correct : forall (L put : pytext) (ln col eln ecol : nat),
  valid_loc L ln col eln ecol -> put <> [] ->
  params_offset L put (Z.of_nat ln) (Z.of_nat col) (Z.of_nat eln) (Z.of_nat ecol)
  = Some (Z.of_nat eln, (- Z.of_nat (c2b (lineAt L eln) ecol))%Z,
          (Z.of_nat (length put - 1) - Z.of_nat (eln - ln))%Z,
          (Z.of_nat (blen_nat (new_prefix L put ln col)) - Z.of_nat (c2b (lineAt L eln) ecol))%Z).
Proof. exact params_offset_correct. Qed.
Print Assumptions C01_params_offset_correct.

Theorem C01_walk_is_map : forall lno colo dln dcol tail head excl oe t, Ordered t ->
  fst (walk_tree lno colo dln dcol tail head excl oe t) = map_tree lno colo dln dcol tail head excl oe t.
Proof. exact walk_map. Qed.
Print Assumptions C01_walk_is_map.

Theorem C01_new_subtree_lands_rigidly : forall ln0 dcol0 new, Ordered new -> standalone new ->
  rigid ln0 dcol0 new = map_pos (rigid_pos ln0 dcol0) new.
Proof. exact rigid_is_rigid_pos. Qed.
Print Assumptions C01_new_subtree_lands_rigidly.

Theorem C01_frame_expr_replace : forall lno colo dln dcol parent target ln0 dcol0 new t,
  Ordered t -> Ordered new -> standalone new ->
  expr_replace lno colo dln dcol parent target ln0 dcol0 new t
  = apply_at target (fun _ => map_pos (rigid_pos ln0 dcol0) new) (mode_map lno colo dln dcol parent false t).
Proof. exact expr_replace_is_mode_map. Qed.
Print Assumptions C01_frame_expr_replace.

Theorem C01_before_region_fixed : forall lno colo dln dcol tail head q,
  wf_pos q -> before lno colo q -> offset_spec lno colo dln dcol tail head q = q.
Proof. exact spec_id_before. Qed.
Print Assumptions C01_before_region_fixed.

Theorem C01_after_region_rigid : forall lno colo dln dcol tail head l c el ec,
  pos_le l c el ec = true -> pos_lt lno colo l c = true ->
  offset_spec lno colo dln dcol tail head (l, c, el, ec)
  = ((l + dln)%Z, (if (l =? lno)%Z then (c + dcol)%Z else c), (el + dln)%Z, (if (el =? lno)%Z then (ec + dcol)%Z else ec)).
Proof. exact spec_after. Qed.
Print Assumptions C01_after_region_rigid.

Theorem C01_container_grows_by_splice : forall lno colo dln dcol l c el ec,
  pos_le l c lno colo = true -> pos_le lno colo el ec = true -> pos_lt l c el ec = true ->
  offset_spec lno colo dln dcol TTrue TFalse (l, c, el, ec)
  = (l, c, (el + dln)%Z, (if (el =? lno)%Z then (ec + dcol)%Z else ec)).
Proof. exact spec_container. Qed.
Print Assumptions C01_container_grows_by_splice.

(* non-vacuity: `x = a + b` with `a` (0..1 of the BinOp at col 4) replaced by a 3-byte name *)
Example C01_nonvacuous :
  let t := SNode 0 (Some (1, 0, 1, 9)%Z) None
             [Some (SNode 1 (Some (1, 0, 1, 1)%Z) None []);
              Some (SNode 2 (Some (1, 4, 1, 9)%Z) None
                      [Some (SNode 3 (Some (1, 4, 1, 5)%Z) None []); Some (SNode 4 (Some (1, 8, 1, 9)%Z) None [])])] in
  let new := SNode 9 (Some (1, 0, 1, 3)%Z) None [] in
  flat_pos (expr_replace 1 5 0 2 2 3 0 4 new t)
  = [Some (1, 0, 1, 11)%Z; Some (1, 0, 1, 1)%Z; Some (1, 4, 1, 11)%Z; Some (1, 4, 1, 7)%Z; Some (1, 10, 1, 11)%Z].
Proof. vm_compute. reflexivity. Qed.

(* delimiters put around a node (par(), automatic parenthesization): models/Delimit.v over the TRANSLATED call flags *)
Theorem C01_role_reading_of_exclude_is_the_walk_map : forall pc lno colo p t i s, pc_excl_self pc = true ->
  map_tree lno colo 0 1 (pc_tail pc) (pc_head pc) (Some 1%nat) (pc_offset_excluded pc) (shape p t i s)
  = shape (put_at pc lno colo 1 ROther p) (put_at pc lno colo 1 RSelf t) (put_at pc lno colo 1 RInner i) (put_at pc lno colo 1 ROther s).
Proof. exact put_at_is_map_tree. Qed.
Print Assumptions C01_role_reading_of_exclude_is_the_walk_map.

Theorem C01_delimited_node_grows_by_both_delimiters : forall ls cs le ce, pos_lt ls cs le ce = true ->
  delimit_pos ls cs le ce RSelf (ls, cs, le, ce) = (ls, cs, le, (ce + 1 + b2z (le =? ls))%Z).
Proof. exact delimit_self. Qed.
Print Assumptions C01_delimited_node_grows_by_both_delimiters.

Theorem C01_delimit_every_node_beside_or_below_keeps_its_text : forall ls cs le ce l c el ec,
  pos_lt ls cs le ce = true -> pos_lt l c el ec = true ->
  (forall r, (r = ROther /\ (pos_le el ec ls cs = true \/ pos_le le ce l c = true))
             \/ (r = RInner /\ pos_le ls cs l c = true /\ pos_le el ec le ce = true) ->
     delimit_pos ls cs le ce r (l, c, el, ec) = (l, char_col ls cs le ce l c, el, end_col ls cs le ce el ec)).
Proof.
  intros ls cs le ce l c el ec HT Hne r [[-> H]|[-> [H1 H2]]]; [now apply delimit_frame | now apply delimit_inner_frame].
Qed.
Print Assumptions C01_delimit_every_node_beside_or_below_keeps_its_text.

Theorem C01_delimit_ancestors_grow_by_the_delimiters : forall ls cs le ce l c el ec, pos_lt ls cs le ce = true ->
  pos_le l c ls cs = true -> pos_le le ce el ec = true ->
  delimit_pos ls cs le ce ROther (l, c, el, ec) = (l, c, el, (ec + b2z (el =? ls) + b2z (el =? le))%Z).
Proof. intros. now apply delimit_ancestors. Qed.
Print Assumptions C01_delimit_ancestors_grow_by_the_delimiters.

Theorem C01_delimit_following_node_is_not_overlapped : forall ls cs le ce l c el ec,
  pos_lt ls cs le ce = true -> pos_lt l c el ec = true -> pos_le le ce l c = true ->
  let '(_, _, tel, tec) := delimit_pos ls cs le ce RSelf (ls, cs, le, ce) in
  let '(l', c', _, _) := delimit_pos ls cs le ce ROther (l, c, el, ec) in
  pos_le tel tec l' c' = true.
Proof. intros. now apply delimit_next_not_overlapped. Qed.
Print Assumptions C01_delimit_following_node_is_not_overlapped.

(* with head=False on the closing put (any other flags as they are) a node that starts where T ended is left inside it *)
Theorem C01_closing_put_without_head_would_overlap :
  let cl := {| pc_tail := TTrue; pc_head := TFalse; pc_excl_self := true; pc_offset_excluded := true |} in
  let '(_, _, tel, tec) := wrap_pos cl delimit_open delimit_inner true 1 3 1 6 RSelf (1, 3, 1, 6)%Z in
  let '(l', c', _, _) := wrap_pos cl delimit_open delimit_inner true 1 3 1 6 ROther (1, 6, 1, 8)%Z in
  pos_lt l' c' tel tec = true.
Proof. vm_compute. reflexivity. Qed.
Print Assumptions C01_closing_put_without_head_would_overlap.

Theorem C01_grouped_node_moves_with_its_text : forall ls cs le ce, pos_lt ls cs le ce = true ->
  group_pos ls cs le ce RSelf (ls, cs, le, ce) = (ls, char_col ls cs le ce ls cs, le, end_col ls cs le ce le ce)
  /\ group_pos ls cs le ce RSelf (ls, cs, le, ce) = (ls, (cs + 1)%Z, le, (ce + b2z (le =? ls))%Z).
Proof.
  intros ls cs le ce HT. split; [|now apply group_self].
  rewrite group_pos_eq. apply (delimit_inner_frame ls cs le ce HT ls cs le ce HT), pos_le_refl.
Qed.
Print Assumptions C01_grouped_node_moves_with_its_text.

Theorem C01_group_every_node_beside_or_below_keeps_its_text : forall ls cs le ce l c el ec,
  pos_lt ls cs le ce = true -> pos_lt l c el ec = true ->
  (forall r, (r = ROther /\ (pos_le el ec ls cs = true \/ pos_le le ce l c = true))
             \/ (r = RInner /\ pos_le ls cs l c = true /\ pos_le el ec le ce = true) ->
     group_pos ls cs le ce r (l, c, el, ec) = (l, char_col ls cs le ce l c, el, end_col ls cs le ce el ec)).
Proof.
  intros ls cs le ce l c el ec HT Hne r [[-> H]|[-> [H1 H2]]]; rewrite group_pos_eq;
    [now apply delimit_frame | now apply delimit_inner_frame].
Qed.
Print Assumptions C01_group_every_node_beside_or_below_keeps_its_text.

Theorem C01_group_ancestors_grow_by_the_parentheses : forall ls cs le ce l c el ec, pos_lt ls cs le ce = true ->
  pos_le l c ls cs = true -> pos_le le ce el ec = true ->
  group_pos ls cs le ce ROther (l, c, el, ec) = (l, c, el, (ec + b2z (el =? ls) + b2z (el =? le))%Z).
Proof. intros. rewrite group_pos_eq. now apply delimit_ancestors. Qed.
Print Assumptions C01_group_ancestors_grow_by_the_parentheses.

(* non-vacuity: x = f'{a,b:x}' *)
Example C01_delimit_nonvacuous :
  delimit_pos 1 7 1 10 RSelf (1, 7, 1, 10)%Z = (1, 7, 1, 12)%Z /\ delimit_pos 1 7 1 10 ROther (1, 10, 1, 12)%Z = (1, 12, 1, 14)%Z
  /\ delimit_pos 1 7 1 10 RInner (1, 9, 1, 10)%Z = (1, 10, 1, 11)%Z /\ delimit_pos 1 7 1 10 ROther (1, 4, 1, 14)%Z = (1, 4, 1, 16)%Z.
Proof. exact delimit_fstring_field. Qed.

(* unpar undoes par: _unparenthesize_grouping (flags TRANSLATED) after _parenthesize_grouping returns every node to its position *)
Theorem C01_unpar_undoes_par_on_every_node : forall ls cs le ce l c el ec, pos_lt ls cs le ce = true ->
  let e := (ce + b2z (le =? ls))%Z in
  ungroup_pos ls cs le e RSelf (group_pos ls cs le ce RSelf (ls, cs, le, ce)) = (ls, cs, le, ce)
  /\ (pos_lt l c el ec = true -> pos_le ls cs l c = true -> pos_le el ec le ce = true ->
      ungroup_pos ls cs le e RInner (group_pos ls cs le ce RInner (l, c, el, ec)) = (l, c, el, ec))
  /\ (pos_lt l c el ec = true -> pos_le le ce l c = true \/ pos_le el ec ls cs = true ->
      ungroup_pos ls cs le e ROther (group_pos ls cs le ce ROther (l, c, el, ec)) = (l, c, el, ec))
  /\ (pos_le l c ls cs = true -> pos_le le ce el ec = true ->
      ungroup_pos ls cs le e ROther (group_pos ls cs le ce ROther (l, c, el, ec)) = (l, c, el, ec)).
Proof.
  intros ls cs le ce l c el ec HT e. repeat split; intros.
  - rewrite group_pos_eq. apply (unwrap_wrap_inner ls cs le ce HT RSelf ls cs le ce HT), pos_le_refl.
  - rewrite group_pos_eq. now apply unwrap_wrap_inner.
  - rewrite group_pos_eq. now apply unwrap_wrap_other.
  - rewrite group_pos_eq. now apply unwrap_wrap_other.
Qed.
Print Assumptions C01_unpar_undoes_par_on_every_node.

(* non-vacuity: x = a + b -> x = (a + b) -> x = a + b : the Assign, its target, the BinOp and its operands *)
Example C01_unpar_nonvacuous :
  map (fun rq => ungroup_pos 1 4 1 10 (fst rq) (group_pos 1 4 1 9 (fst rq) (snd rq)))
      [(ROther, (1, 0, 1, 9)); (ROther, (1, 0, 1, 1)); (RSelf, (1, 4, 1, 9)); (RInner, (1, 4, 1, 5)); (RInner, (1, 8, 1, 9))]%Z
  = [(1, 0, 1, 9); (1, 0, 1, 1); (1, 4, 1, 9); (1, 4, 1, 5); (1, 8, 1, 9)]%Z
  /\ map (fun rq => group_pos 1 4 1 9 (fst rq) (snd rq)) [(ROther, (1, 0, 1, 9)); (RSelf, (1, 4, 1, 9)); (RInner, (1, 8, 1, 9))]%Z
  = [(1, 0, 1, 11); (1, 5, 1, 10); (1, 9, 1, 10)]%Z.
Proof. vm_compute. split; reflexivity. Qed.

(* the same for delimiters that belong to the node: _undelimit_node (flags TRANSLATED) after _delimit_node *)
Theorem C01_undelimit_undoes_delimit_on_every_node : forall ls cs le ce l c el ec, pos_lt ls cs le ce = true ->
  let e := (ce + b2z (le =? ls))%Z in
  undelimit_pos ls cs le e RSelf (delimit_pos ls cs le ce RSelf (ls, cs, le, ce)) = (ls, cs, le, ce)
  /\ (pos_lt l c el ec = true -> pos_le ls cs l c = true -> pos_le el ec le ce = true ->
      undelimit_pos ls cs le e RInner (delimit_pos ls cs le ce RInner (l, c, el, ec)) = (l, c, el, ec))
  /\ (pos_lt l c el ec = true -> pos_le le ce l c = true \/ pos_le el ec ls cs = true ->
      undelimit_pos ls cs le e ROther (delimit_pos ls cs le ce ROther (l, c, el, ec)) = (l, c, el, ec))
  /\ (pos_le l c ls cs = true -> pos_le le ce el ec = true ->
      undelimit_pos ls cs le e ROther (delimit_pos ls cs le ce ROther (l, c, el, ec)) = (l, c, el, ec)).
Proof.
  intros ls cs le ce l c el ec HT e. repeat split; intros.
  - now apply undelimit_delimit_self.
  - rewrite undelimit_pos_eq. now apply unwrap_wrap_inner.
  - rewrite undelimit_pos_eq. now apply unwrap_wrap_other.
  - rewrite undelimit_pos_eq. now apply unwrap_wrap_other.
Qed.
Print Assumptions C01_undelimit_undoes_delimit_on_every_node.
