(* C19 - Coercion yields a valid node of the requested kind with the same content.

   FULL STATEMENT: converting a node to another kind (as_(), FST(node, mode), or implicitly on put) either raises or
   returns a standalone tree that parses in the requested mode, is an instance of the requested kind, and contains the
   same leaf names, constants and sub-expressions in the same order; if the node already has the requested kind it is
   returned unchanged. Coercing a formatted node and coercing its pure AST give structurally equal results, copy-mode
   coercion leaves the operand untouched, and a put that coerces gives the same structure as a put of the explicitly
   converted node.

   PROVED HERE (models/Coerce.v: the expression <-> match-pattern coercions over a grammar covering everything those
   routines accept, with an opaque node for what they refuse; tied to as_('pattern') / as_('expr') by correspondence of
   accept/refuse and of the resulting structure):
   - whenever an expression coerces to a pattern, the pattern has exactly the names and constants of the expression in
     the same order (wildcard `_` included; a | b | c ladders flatten to one MatchOr without reordering; mapping keys,
     class keyword names, ** rest names all kept in place);
   - whenever a pattern coerces to an expression, likewise;
   - captures, literals, signed numbers and attribute chains go there and back unchanged; any other expression kind is
     refused.
   - (models/Alias.v: _coerce_to_alias, tied to as_('alias') / FST(ast, 'alias') by correspondence) an expression coerces
     to an import alias iff it is an attribute chain on a plain name, and the name - built back to front by the loop - is
     the chain's identifiers in source order joined by dots.
   NOT PROVED: the other ~40 coercion routines (sequences, argument lists, with-items, statements ...), source
   formatting of the result, FST vs pure-AST agreement, copy mode, coercing puts: decided on the implementation by the
   kind x mode matrix of py/props/C19.py (partial). *)
From Coq Require Import List.
From PF Require Import models.Coerce proofs.CoerceProofs models.Alias proofs.AliasProofs.
Import ListNotations.

Theorem C19_expr_to_pattern_keeps_leaves : forall e p, e2p e = Some p -> pleaves p = eleaves e.
Proof. exact e2p_leaves. Qed.
Print Assumptions C19_expr_to_pattern_keeps_leaves.

Theorem C19_pattern_to_expr_keeps_leaves : forall p e, p2e p = Some e -> eleaves e = pleaves p.
Proof. exact p2e_leaves. Qed.
Print Assumptions C19_pattern_to_expr_keeps_leaves.

Theorem C19_simple_round_trip : forall e p, e2p e = Some p ->
  (match e with EName _ | EConst _ | EAttr _ _ | ENeg _ => True | _ => False end) -> p2e p = Some e.
Proof. exact simple_round_trip. Qed.
Print Assumptions C19_simple_round_trip.

Theorem C19_alias_name_is_the_dotted_path_in_source_order : forall e, to_alias e = dotted e.
Proof. exact to_alias_is_dotted_path. Qed.
Print Assumptions C19_alias_name_is_the_dotted_path_in_source_order.

Theorem C19_alias_refuses_exactly_what_is_not_a_name_chain : forall e, to_alias e = None <-> parts e = None.
Proof.
  intros e. rewrite to_alias_is_dotted_path. unfold dotted. destruct (parts e); cbn; split; intros H; congruence.
Qed.
Print Assumptions C19_alias_refuses_exactly_what_is_not_a_name_chain.

(* non-vacuity:  C(a, k=1) | {"s": _, **r} | [x, *y]  coerces, keeps its 9 leaves in order, and comes back *)
Example C19_example :
  let e := EBin OBitOr (EBin OBitOr (ECall (EName 3) [EName 1] [(Some 11, EConst (CNum 1))])
                                    (EDict [(Some (EConst (CStr 5)), EName 0); (None, EName 18)]))
                       (ESeq [EName 24; EStar (EName 25)]) in
  match e2p e with
  | Some p => leaves_eqb (pleaves p) (eleaves e) = true /\ length (eleaves e) = 9 /\ oex_eqb (p2e p) (Some e) = true
  | None => False
  end.
Proof. vm_compute. repeat split. Qed.
