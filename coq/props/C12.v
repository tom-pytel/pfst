(* C12 - A failed edit leaves the target tree untouched and still editable.

   FULL STATEMENT: if a structured edit raises, the target tree's source, structure and positions are exactly what
   they were; no internal modification lock or half-applied change survives; the next valid edit on the same tree
   succeeds and the tree still satisfies C01.

   PROVED HERE over models/Registry.v (hand model of _MODIFYING / _Modifying.enter/success/fail) and the regenerated
   list of call sites (gen/ModSites.v): for EVERY nest of modification blocks with refusals and exceptions anywhere,
   the registry is (observationally) what it was; from idle it ends idle; a refused enter changes nothing; the next
   edit of any node is admitted; every call site in the source is a `with` item or the guarded manual protocol.
   NOT PROVED: validate-before-mutate inside the hundreds of handler raise sites - no model; decided by the
   fault-sequence cross-check in py/props/C12.py (partial). *)
From Coq Require Import List String.
From PF Require Import gen.ModSites models.Registry proofs.RegistryProofs.
Import ListNotations.

Theorem C12_registry_restored_by_any_block_nest : forall l g, wf g -> req (fst (run_items g l)) g.
Proof. exact reg_bracket. Qed.
Print Assumptions C12_registry_restored_by_any_block_nest.

Theorem C12_no_lock_survives : forall l r, rget (fst (run_items [] l)) r = None.
Proof. exact reg_ends_empty. Qed.
Print Assumptions C12_no_lock_survives.

Theorem C12_refused_enter_is_pure : forall g r n f, enter g r n f = None -> rstep g (REnter r n f) = (g, false).
Proof. exact reg_reject_pure. Qed.
Print Assumptions C12_refused_enter_is_pure.

Theorem C12_next_edit_admitted : forall l r n f, exists g', enter (fst (run_items [] l)) r n f = Some g'.
Proof. exact reg_next_edit. Qed.
Print Assumptions C12_next_edit_admitted.

Definition site_ok (s : string * nat * string) : bool :=
  let k := snd s in (String.eqb k "with" || String.eqb k "manual_guarded" || String.eqb k "def")%bool.

(* finite obligation over the regenerated call-site list: every use of the modification context is released on
   both the normal and the exceptional path *)
Theorem C12_all_sites_bracketed : forallb site_ok mod_sites = true.
Proof. vm_compute. reflexivity. Qed.
Print Assumptions C12_all_sites_bracketed.

Example C12_nonvacuous :
  let l := [Blk 1 10 false [Blk 1 10 false [] false; Blk 1 11 false [] false; Blk 2 20 false [] true] false] in
  run_items [] l = ([], true) /\ wf [] /\ enter [(1, (10, 1))] 1 11 false = None.
Proof. split; [reflexivity|split; [exact wf_nil|reflexivity]]. Qed.
