(* C17 - Matching depends only on structure; quantifiers behave like regular expressions.

   FULL STATEMENT: a structural pattern gives the same result and tags on a formatted tree, any re-layout and its pure
   AST; a tree matches the pattern built from its own AST and not one differing in a leaf; a match never depends on
   previous calls; search(p) yields exactly the nodes, in walk order, that match(p) accepts; sequences of quantified
   patterns in list fields accept, reject and capture exactly as the corresponding regular expression (greedy and
   non-greedy, with backtracking and back-references).

   PROVED HERE (models/Match.v: hand transcription of _match__inside_list / _match__inside_list_quantifier and of the
   _leaf_asts pre-filter algebra, tied by correspondence):
     L  for every sequence of element patterns and quantifiers over fixed-length sub-lists (any bounds, greedy or lazy,
        any nesting of quantifiers at list level) and every target sequence: the backtracking matcher accepts exactly
        the regular language of the pattern sequence (match_items_accepts_lang);
     S  the pre-filter never hides a node the pattern matches (MOR/MAND/MNOT/types/node patterns/unknown), hence search
        = walk filtered by match; the un-repaired MNOT rule is refuted by a concrete witness.
   Both defects these statements exposed at design time were repaired in /repo ("fix:" commits, known_findings.json).
     N  (models/MatchNested.v: quantified sub-lists that contain quantifiers, to any depth; one repetition is the FIRST
        match of the sub-list and is then kept or given back whole - an atomic group, as docs/d11_match.py says: "the
        backtracking from those quantifiers doesn't mix with the parent quantifier") whatever the matcher accepts is in
        the regular language of the nested pattern (nmatch_sound, also for partial matches); the converse is REFUTED for
        nested quantifiers with the witness (?:b.?b)?b on bbb (nmatch_complete_refuted) - the "corresponding regular
        expression" of a nested repetition is the one with an atomic group, which is what the correspondence compares
        with; on flat patterns the nested matcher accepts exactly the regular language and agrees with the flat model
        (nmatch_flat_exact, nmatch_flat_agrees), through a completeness lemma for any deterministic repetition.
     T  (models/TreeMatch.v: a plain tree - an AST - as pattern, node classes / fields in order / lists element-wise /
        primitive leaves by type and value; a pattern FIELD given as `...` is the wildcard, an Ellipsis constant a literal)
        every tree matches the pattern built from itself; that pattern matches ONLY this tree, so a copy that differs in one
        leaf (or anywhere) matches in neither direction - None, 0, False, '', b'', 0.0 and ... are seven different leaves;
        the pattern with a wildcard at a path matches every tree that differs only at that path.
   NOT PROVED: capture priority (which parse is reported), back-references, the M-pattern node matchers, layout
   independence: correspondence with `re` and the oracle (partial). *)
From Coq Require Import List ZArith.
From PF Require Import models.Match proofs.MatchProofs models.MatchNested proofs.MatchNestedProofs models.TreeMatch proofs.TreeMatchProofs.
Import ListNotations.

Theorem C17_list_matcher_accepts_the_regular_language : forall items, well_formed items -> forall tgt,
  match_items items false tgt <> None <-> lang items tgt.
Proof. exact match_items_accepts_lang. Qed.
Print Assumptions C17_list_matcher_accepts_the_regular_language.

Theorem C17_prefilter_sound : forall p n, pmatch p n = true -> prefilter p n = true.
Proof. exact prefilter_sound. Qed.
Print Assumptions C17_prefilter_sound.

Theorem C17_search_is_filtered_walk : forall p nodes, search p nodes = filter (pmatch p) nodes.
Proof. exact search_is_filtered_walk. Qed.
Print Assumptions C17_search_is_filtered_walk.

Theorem C17_naive_not_complement_refuted :
  let p := PNode [1] (fun n => Nat.eqb (snd n) 7) in
  let naive_leaf_not := fun k : nat => negb (mem k [1]) in
  pmatch (PNot p) (1, 8) = true /\ naive_leaf_not (nkind (1, 8)) = false.
Proof. exact naive_not_complement_unsound. Qed.
Print Assumptions C17_naive_not_complement_refuted.

Theorem C17_nested_matcher_sound : forall items tgt r,
  wf_items items = true -> nmatch items false tgt = Some r -> slang items tgt.
Proof. exact nmatch_sound. Qed.
Print Assumptions C17_nested_matcher_sound.

Theorem C17_nested_repetition_sound : forall items tgt r,
  wf_items items = true -> nmatch items true tgt = Some r -> exists a, tgt = a ++ snd r /\ slang items a.
Proof.
  intros items tgt r Hwf H.
  destruct (nmatch_rest_sound items true tgt (snd r) Hwf) as (a & E & Ha & _); [now rewrite H|eauto].
Qed.
Print Assumptions C17_nested_repetition_sound.

Theorem C17_nested_completeness_refuted :
  wf_items atomic_witness = true /\ slang atomic_witness [1; 1; 1] /\ nmatch atomic_witness false [1; 1; 1] = None.
Proof. exact nmatch_complete_refuted. Qed.
Print Assumptions C17_nested_completeness_refuted.

Theorem C17_nested_matcher_exact_on_flat_patterns : forall items, well_formed items -> forall tgt,
  nmatch (map embed_item items) false tgt <> None <-> lang items tgt.
Proof. exact nmatch_flat_exact. Qed.
Print Assumptions C17_nested_matcher_exact_on_flat_patterns.

Theorem C17_nested_and_flat_models_agree : forall items, well_formed items -> forall tgt,
  nmatch (map embed_item items) false tgt <> None <-> match_items items false tgt <> None.
Proof. exact nmatch_flat_agrees. Qed.
Print Assumptions C17_nested_and_flat_models_agree.

(* non-vacuity of N: (?:a(?:b)*?){1,2}. on "aab" (two repetitions, each the lazily matched "a"), on "abb" (refused: a
   repetition that took "a" is not re-matched as "ab") and on "ab" (one repetition) *)
Example C17_nested_nonvacuous :
  let p := [NQ 1 (Some 2) true [NElem (ELit 0); NQ 0 None false [NElem (ELit 1)]]; NElem EAny] in
  wf_items p = true /\ nmatch p false [0; 0; 1] = Some ([[1; 1]], []) /\ nmatch p false [0; 1; 1] = None /\
  nmatch p false [0; 1] = Some ([[1]], []).
Proof. repeat split; reflexivity. Qed.

(* non-vacuity: (ab)*b on "ab" is rejected, on "abb" accepted; lazy a*? then .* *)
Example C17_nonvacuous :
  let ab_star_b := [IQ 0 None true [ELit 0; ELit 1]; IElem (ELit 1)] in
  well_formed ab_star_b /\
  match_items ab_star_b false [0; 1] = None /\ match_items ab_star_b false [0; 1; 1] = Some [1] /\
  match_items [IQ 0 None false [ELit 0]; IQ 0 None true [EAny]] false [0; 0; 2] = Some [0; 3] /\
  match_items [IQ 0 None true [ELit 0; ELit 1]; IElem (ELit 0); IElem (ELit 1)] false [0; 1; 0; 1] = Some [1].
Proof.
  split; [|repeat split; reflexivity].
  intros mn mx g sub [H|[H|[]]]; [injection H as <- <- <- <-; split; [discriminate|exact I]|discriminate].
Qed.

(* a plain tree as pattern (models/TreeMatch.v) *)
Theorem C17_every_tree_matches_the_pattern_built_from_itself : forall t, tmatch (of_tree t) t = true.
Proof. exact tmatch_refl. Qed.
Print Assumptions C17_every_tree_matches_the_pattern_built_from_itself.

Theorem C17_the_pattern_built_from_a_tree_matches_only_that_tree : forall p t, tmatch (of_tree p) t = true <-> p = t.
Proof. exact tmatch_eq. Qed.
Print Assumptions C17_the_pattern_built_from_a_tree_matches_only_that_tree.

Theorem C17_a_tree_that_differs_in_one_place_does_not_match : forall t path new, put_at path new t <> t ->
  tmatch (of_tree (put_at path new t)) t = false /\ tmatch (of_tree t) (put_at path new t) = false.
Proof.
  intros t path new Hne. split; apply tmatch_neq; [exact Hne|].
  intros E. apply Hne. now symmetry.
Qed.
Print Assumptions C17_a_tree_that_differs_in_one_place_does_not_match.

Theorem C17_a_wildcard_accepts_whatever_stands_in_its_place : forall path t new,
  tmatch (any_at path (of_tree t)) (put_at path new t) = true.
Proof. exact wildcard_at_path. Qed.
Print Assumptions C17_a_wildcard_accepts_whatever_stands_in_its_place.

(* non-vacuity: None against None / 0 / False / '' / b'' / 0.0 / ... in the same slot, and a wildcard there *)
Example C17_falsy_leaves_are_different_leaves :
  map (fun t => tmatch (of_tree (Node 5 [Leaf VNone])) (Node 5 [t])) [Leaf VNone; Leaf (VInt 0); Leaf (VBool false); Leaf (VStr []); Leaf (VBytes []); Leaf (VNum [48%N; 46%N; 48%N]); Leaf VDots]
  = [true; false; false; false; false; false; false]
  /\ map (fun t => tmatch (TNode 5 [TAny]) (Node 5 [t])) [Leaf VNone; Leaf (VInt 0); Leaf VDots] = [true; true; true].
Proof. exact falsy_leaves_differ. Qed.
