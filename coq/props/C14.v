(* C14 - Traversal visits every node once, in source order, consistently across APIs.

   FULL STATEMENT: walk(all=True) yields exactly the reachable nodes, each once, parents before children, siblings in
   text order; back=True reverses sibling order only; on='leave' yields children before parents; on='both' brackets;
   repeated step_fwd()/step_back() reproduce the walk order; next()/prev() (and next_child/prev_child) are mutually
   inverse and agree with walk(recurse=False); child_path()/child_from_path() are inverse bijections.

   PROVED HERE:
     T  for every regular node class (all but the six hand-coded interleaving classes) and EVERY node shape (all list
        lengths, all optional-field occupancies): the generated stepping function TRANSLATED from traverse_next.py /
        traverse_prev.py returns exactly the successor / predecessor in the child order TRANSLATED from
        astutil._SYNTAX_ORDERED_CHILDREN (generic lemma compat_sound + a finite check over the regenerated tables);
        hence next and prev are mutually inverse walks of the same list;
     W  the walk stack machines (hand model of the generator, tied by correspondence) compute preorder (enter),
        preorder of the mirrored tree (back), postorder (leave), bracketed order (both), and the one-level filter
        (recurse=False), for every tree and filter; with all=True the yielded ids are exactly the tree's ids, parent
        first; leave visits the same set as enter.
     I  (models/Interleave.v) the children of a Call / ClassDef head - two AST lists that interleave in the source -
        merged by (line, column): the merge contains the elements of both lists each once, is in position order, and a
        list in strict position order is determined by its elements (so this is THE syntax order); tied to
        astutil.syntax_ordered_children by correspondence.
   NOT PROVED: the stepping functions of the six special classes (ClassDef, Call, Dict, Compare, arguments, MatchMapping:
   interleaving by position), step_fwd/step_back, child_path: correspondence / oracle cross-check only. "Text order" of children is a
   property of parser output and is checked by the oracle. *)
From Coq Require Import List String Bool Arith.
From PF Require Import models.Traverse models.Walk gen.TraverseTables proofs.TraverseProofs proofs.WalkProofs models.Interleave proofs.InterleaveProofs models.WalkShallowModes proofs.WalkShallowModesProofs.
From Coq Require Import Sorted Permutation.
Import ListNotations.
Local Open Scope string_scope.

Fixpoint lookup (c : string) (t : list (string * option (list citem))) : option (option (list citem)) :=
  match t with [] => None | (k, v) :: r => if String.eqb c k then Some v else lookup c r end.

Definition entry_ok (d : dir) (e : string * option string * option (list instr)) : bool :=
  let '(cls, f, p) := e in
  match lookup cls children_tbl, p with
  | Some (Some items), Some prog => nodup_fields items && compat d items f prog
  | Some None, _ => true                         (* special class: hand-coded, see header *)
  | _, _ => false
  end.

(* every (class, field) and (class, START/END) of every regular class has an entry *)
Definition covered (tbl : list (string * option string * option (list instr))) (cls : string) (f : option string) : bool :=
  existsb (fun e => let '(c, g, _) := e in String.eqb c cls &&
                    match f, g with None, None => true | Some a, Some b => String.eqb a b | _, _ => false end) tbl.
Definition class_covered (tbl : list (string * option string * option (list instr))) (e : string * option (list citem)) : bool :=
  match snd e with
  | None => true
  | Some items => covered tbl (fst e) None && forallb (fun it => let 'CI f _ := it in covered tbl (fst e) (Some f)) items
  end.

Theorem C14_tables_compatible_and_complete :
  forallb (entry_ok Fwd) next_tbl = true /\ forallb (entry_ok Bwd) prev_tbl = true /\
  forallb (class_covered next_tbl) children_tbl = true /\ forallb (class_covered prev_tbl) children_tbl = true.
Proof. vm_compute. repeat split; reflexivity. Qed.
Print Assumptions C14_tables_compatible_and_complete.

Theorem C14_accepted_program_is_syntax_order_step : forall d items f p o, wf_occ items o -> compat d items f p = true ->
  match f with
  | None => forall idx, exec d p o idx = hd_error (children_dir d items o)
  | Some f => forall idx, idx < o f -> exec d p o idx = succ_in (children_dir d items o) (f, idx)
  end.
Proof. exact compat_sound. Qed.
Print Assumptions C14_accepted_program_is_syntax_order_step.

(* the two together, for the actual tables: every regular (class, field) entry steps in syntax order on every node shape *)
Lemma checked_entry_steps d cls f p items o :
  entry_ok d (cls, Some f, Some p) = true -> lookup cls children_tbl = Some (Some items) -> wf_occ items o ->
  forall idx, idx < o f -> exec d p o idx = succ_in (children_dir d items o) (f, idx).
Proof.
  unfold entry_ok. intros H Hl Hw. rewrite Hl in H. apply andb_prop in H.
  exact (compat_sound d items (Some f) p o Hw (proj2 H)).
Qed.

Theorem C14_next_is_successor : forall cls f p items o,
  In (cls, Some f, Some p) next_tbl -> lookup cls children_tbl = Some (Some items) -> wf_occ items o ->
  forall idx, idx < o f -> exec Fwd p o idx = succ_in (children_of items o) (f, idx).
Proof.
  intros cls f p items o Hin. apply (checked_entry_steps Fwd).
  destruct C14_tables_compatible_and_complete as [H _]. exact (proj1 (forallb_forall _ _) H _ Hin).
Qed.
Print Assumptions C14_next_is_successor.

Theorem C14_prev_is_predecessor : forall cls f p items o,
  In (cls, Some f, Some p) prev_tbl -> lookup cls children_tbl = Some (Some items) -> wf_occ items o ->
  forall idx, idx < o f -> exec Bwd p o idx = succ_in (rev (children_of items o)) (f, idx).
Proof.
  intros cls f p items o Hin. apply (checked_entry_steps Bwd).
  destruct C14_tables_compatible_and_complete as [_ [H _]]. exact (proj1 (forallb_forall _ _) H _ Hin).
Qed.
Print Assumptions C14_prev_is_predecessor.

Theorem C14_walk_enter_is_preorder : forall t, walk_enter false true t = pre t.
Proof. exact walk_enter_preorder. Qed.
Print Assumptions C14_walk_enter_is_preorder.

Theorem C14_walk_back_reverses_siblings_only : forall t, walk_enter true true t = pre (mirror t).
Proof. exact (walk_enter_pre true). Qed.
Print Assumptions C14_walk_back_reverses_siblings_only.

Theorem C14_walk_leave_is_postorder : forall t, walk_leave false t = post t.
Proof. exact walk_leave_postorder. Qed.
Print Assumptions C14_walk_leave_is_postorder.

Theorem C14_walk_both_brackets : forall t, walk_both false t = both t.
Proof. exact walk_both_brackets. Qed.
Print Assumptions C14_walk_both_brackets.

Theorem C14_walk_norecurse_is_one_level : forall back t,
  walk_enter back false t = ((if let 'RNode _ ok _ := t in ok then [rid t] else []) ++
    flat_map (fun k => match k with Some (RNode i true _) => [i] | _ => [] end) (ord back (rkids t)))%list.
Proof.
  intros back [i ok kids]. unfold walk_enter. cbn [rid rkids]. f_equal.
  rewrite run_enter_level by (rewrite <- (wsize_ord back kids); apply length_le_wsize).
  apply flat_map_ext. intros [[j [] ks]|]; reflexivity.
Qed.
Print Assumptions C14_walk_norecurse_is_one_level.

Theorem C14_walk_all_yields_exactly_the_nodes : forall t, all_ok t = true -> walk_enter false true t = ids t.
Proof. intros t H. rewrite walk_enter_preorder. now apply pre_all_is_ids. Qed.
Print Assumptions C14_walk_all_yields_exactly_the_nodes.

Theorem C14_leave_visits_same_set : forall t x, In x (walk_leave false t) <-> In x (walk_enter false true t).
Proof. intros t x. rewrite walk_leave_postorder, walk_enter_preorder. split; apply Permutation_in; [|symmetry]; apply post_perm_pre. Qed.
Print Assumptions C14_leave_visits_same_set.

Theorem C14_interleaved_children_are_both_lists_each_once : forall l1 l2, Permutation (merge l1 l2) (l1 ++ l2).
Proof. intros l1 l2. symmetry. exact (StdMerge.Permuted_merge l1 l2). Qed.
Print Assumptions C14_interleaved_children_are_both_lists_each_once.

Theorem C14_interleaved_children_are_in_position_order : forall l1 l2,
  Sorted InterleaveProofs.le l1 -> Sorted InterleaveProofs.le l2 -> Sorted InterleaveProofs.le (merge l1 l2).
Proof.
  intros l1 l2 S1 S2. apply Sorted_LocallySorted_iff.
  apply (StdMerge.Sorted_merge l1 l2); now apply Sorted_LocallySorted_iff.
Qed.
Print Assumptions C14_interleaved_children_are_in_position_order.

Theorem C14_position_order_is_unique : forall l l', Sorted InterleaveProofs.lt l -> Sorted InterleaveProofs.lt l' -> Permutation l l' -> l = l'.
Proof. exact strictly_sorted_unique. Qed.
Print Assumptions C14_position_order_is_unique.

Example C14_nonvacuous :
  let t := RNode 0 true [Some (RNode 1 true [Some (RNode 2 false []); None]); Some (RNode 3 true [])] in
  walk_enter false true t = [0; 1; 3] /\ walk_enter true true t = [0; 3; 1] /\ walk_leave false t = [1; 3; 0] /\
  walk_both false t = [(0, false); (1, false); (1, true); (3, false); (3, true); (0, true)] /\
  exec Fwd [IdxStep "body"; EndOf "orelse"; RetNone] (fun f => if String.eqb f "body" then 2 else 1) 1 = Some ("orelse", 0).
Proof. vm_compute. repeat split; reflexivity. Qed.

(* on='leave' / on='both' without recursion (models/WalkShallowModes.v) *)
Theorem C14_both_with_recursion_is_the_loop_already_proved : forall back t, walk_both_r back true t = walk_both back t.
Proof. intros back [i ok kids]. unfold walk_both_r, walk_both. now rewrite run_both_r_true. Qed.
Print Assumptions C14_both_with_recursion_is_the_loop_already_proved.

Theorem C14_both_without_recursion_enters_and_leaves_the_accepted_children_only : forall back t,
  walk_both_r back false t
  = let 'RNode i ok kids := t in ((if ok then [(i, false)] else []) ++ level_both (ord back kids) ++ (if ok then [(i, true)] else []))%list.
Proof.
  intros back [i ok kids]. unfold walk_both_r. rewrite run_both_r_false_level; [reflexivity|].
  rewrite lsize_enter, <- (wsize_ord back kids). apply Nat.mul_le_mono_l, length_le_wsize.
Qed.
Print Assumptions C14_both_without_recursion_enters_and_leaves_the_accepted_children_only.

Theorem C14_leave_without_recursion_yields_the_accepted_children_then_the_root : forall back t,
  walk_leave_r back false t = let 'RNode i ok kids := t in (level (ord back kids) ++ (if ok then [i] else []))%list.
Proof.
  intros back [i ok kids]. unfold walk_leave_r. rewrite run_leave_level; [reflexivity|].
  unfold ord. destruct back; [rewrite rev_length|]; apply le_n.
Qed.
Print Assumptions C14_leave_without_recursion_yields_the_accepted_children_then_the_root.

Theorem C14_the_three_modes_agree_on_one_level : forall (kids : list (option rtree)) f back, List.length kids <= f ->
  run_enter f back false kids = level kids
  /\ map fst (filter (fun e => negb (snd e)) (level_both kids)) = level kids
  /\ map fst (filter (fun e => snd e) (level_both kids)) = level kids.
Proof. intros kids f back H. repeat split; [now apply run_enter_level | now apply level_both_half | now apply level_both_half]. Qed.
Print Assumptions C14_the_three_modes_agree_on_one_level.
